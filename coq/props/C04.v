(* Property C04 — grid-connector power limit is never exceeded.
   PARTIAL.  Proved, for ANY strategy (the strategy is abstract in theories/RunLoop.v): a step
   whose connector or station power leaves its limit is never reported as valid — every
   reported step but the last is within +-(limit+EPS), the run stops at the first invalid step
   and is flagged aborted; the current limit never exceeds the rating and a signalled limit
   yields min(rating, limit).  The run-loop model is tied to Scenario.run for all eight
   strategies by exact correspondence on recorded runs.
   NOT proved: 'no strategy's decisions break the limit when fixed load and generation respect
   it' — evaluated by a Python predicate on every step of every recorded exact run (all eight
   strategies; classes C04/strategy-breaks-limit/<strategy>); sampled, not a theorem. *)
From Coq Require Import Reals List.
From SV Require Import Num RNum RunLoop RunLoopProps Kernel KernelProps.
Import ListNotations.
Open Scope R_scope.

Theorem C04_reported_steps_valid : forall eps steps,
  (@aborted R RNum eps steps = false -> Forall (valid eps) steps /\ fst (@run R RNum eps steps) = map mk_row steps) /\
  (@aborted R RNum eps steps = true -> exists pre s post, steps = pre ++ s :: post /\ Forall (valid eps) pre /\
      ~ valid eps s /\ fst (@run R RNum eps steps) = map mk_row pre ++ [mk_row s]).
Proof.
  intros eps steps. unfold aborted.
  assert (V : forall l, forallb (@step_ok R RNum eps) l = true -> Forall (valid eps) l).
  { intros l H. rewrite forallb_forall in H. apply Forall_forall. intros s Hs. apply step_ok_valid, H, Hs. }
  destruct (run_spec eps steps) as [[H ->]|(pre & s & post & -> & H & E & ->)]; cbn [fst snd].
  - split; [auto|discriminate].
  - split; [discriminate|]. intros _. exists pre, s, post. repeat split; auto.
    intros Vs. apply step_ok_valid in Vs. congruence.
Qed.
Print Assumptions C04_reported_steps_valid.

(* what 'valid' means for one connector: reported power within +-(current limit + EPS) *)
Theorem C04_valid_means_within : forall eps s, valid eps s ->
  Forall (fun g => - (g_curmax g + eps) <= @gc_load R RNum g <= g_curmax g + eps) (s_gcs s).
Proof. intros eps s (_ & _ & H). eapply Forall_impl; [|exact H]. intros g [Hg _]. exact Hg. Qed.
Print Assumptions C04_valid_means_within.

Theorem C04_abort_iff_invalid_step : forall eps (steps:list (@stepobs R)),
  @aborted R RNum eps steps = false <-> forallb (@step_ok R RNum eps) steps = true.
Proof. apply aborted_iff. Qed.
Print Assumptions C04_abort_iff_invalid_step.

Theorem C04_limit_never_above_rating : forall (rating:R) cur ev, rating <> 0 ->
  (match cur with Some c => c <= rating | None => True end) ->
  match @apply_limit R RNum rating cur ev with Some c => c <= rating | None => cur = None /\ ev = None end.
Proof. exact apply_limit_le_rating. Qed.
Print Assumptions C04_limit_never_above_rating.

Theorem C04_limit_is_min : forall (rating:R) cur m, rating <> 0 ->
  @apply_limit R RNum rating cur (Some m) = Some (Rmin rating m).
Proof.
  intros rating cur m Hr. unfold apply_limit. rewrite zero_0, Reqb_false by exact Hr. rewrite nmin_R. reflexivity.
Qed.
Print Assumptions C04_limit_is_min.

(* ---- the executable (Q) instance that is run against /repo: the same abort statement, and its agreement with the
   proof (R) instance (Transfer*.v) ---- *)
From Coq Require Import QArith.
From SV Require Import Transfer TransferAll ExecProps.
Theorem C04_exec_abort_iff_invalid_step : forall tbl eps (steps:list (@stepobs Q)),
  @aborted Q (QNum tbl) eps steps = false <-> forallb (@step_ok Q (QNum tbl) eps) steps = true.
Proof. exact run_exec_abort_iff_invalid_step. Qed.
Print Assumptions C04_exec_abort_iff_invalid_step.
Theorem C04_exec_step_ok_is_proof_model : forall tbl eps s s', SV_o_RunLoop_o_stepobs_R Q R QR s s' ->
  @step_ok Q (QNum tbl) eps s = @step_ok R RNum (Q2R eps) s'.
Proof. exact step_ok_transfer. Qed.
Print Assumptions C04_exec_step_ok_is_proof_model.
Theorem C04_exec_limit_rule_is_proof_model : forall tbl rating cur ev,
  @apply_limit R RNum (Q2R rating) (option_map Q2R cur) (option_map Q2R ev) = option_map Q2R (@apply_limit Q (QNum tbl) rating cur ev).
Proof. exact TransferK.apply_limit_transfer. Qed.
Print Assumptions C04_exec_limit_rule_is_proof_model.
