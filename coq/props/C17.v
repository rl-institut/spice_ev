(* Property C17 — every simulation terminates and fails loudly.
   PARTIAL.  Proved on the run-loop model (any strategy, any number type): the number of reported
   steps never exceeds the configured number; a run without error reports exactly the
   configured number of steps; an error in event processing or in the strategy, or a failed
   safety check, is never dropped — the run stops at the FIRST such step, reports it as its
   last row and is flagged aborted; every step contributes one row with one entry per
   connector to every series (equal lengths).
   NOT proved: bounded running time of the look-ahead strategies' loops and 'report generation
   still succeeds' — runtime facts, exercised by fault injection (a strategy step raising at a
   random step, infeasible trips) on recorded runs of all eight strategies. *)
From Coq Require Import List.
From SV Require Import Num RunLoop RunLoopProps.
Import ListNotations.

Theorem C17_steps_bounded : forall T (N:Num T) eps (steps:list (@stepobs T)),
  length (fst (@run T N eps steps)) <= length steps.
Proof. exact @run_length. Qed.
Print Assumptions C17_steps_bounded.
Theorem C17_complete_run : forall T (N:Num T) eps (steps:list (@stepobs T)),
  @aborted T N eps steps = false -> @step_i T N eps steps = length steps.
Proof.
  intros T N eps steps. unfold aborted, step_i.
  destruct (run_spec eps steps) as [[_ ->]|(pre & s & post & _ & _ & _ & ->)]; [|discriminate].
  intros _. apply map_length.
Qed.
Print Assumptions C17_complete_run.
Theorem C17_error_latched : forall T (N:Num T) eps (steps:list (@stepobs T)), @aborted T N eps steps = true ->
  exists pre s post, steps = pre ++ s :: post /\ forallb (step_ok eps) pre = true /\ step_ok eps s = false /\
    fst (run eps steps) = map mk_row pre ++ [mk_row s].
Proof.
  intros T N eps steps. unfold aborted.
  destruct (run_spec eps steps) as [[_ ->]|(pre & s & post & -> & H1 & H2 & ->)]; [discriminate|].
  intros _. exists pre, s, post. auto.
Qed.
Print Assumptions C17_error_latched.
Theorem C17_raise_is_invalid : forall T (N:Num T) eps (s:@stepobs T),
  s_pre_error s = true \/ s_strat_error s = true -> step_ok eps s = false.
Proof. intros T N eps s [H|H]; unfold step_ok; rewrite H; [reflexivity|]. destruct (s_pre_error s); reflexivity. Qed.
Print Assumptions C17_raise_is_invalid.
Theorem C17_row_shape : forall T (N:Num T) (s:@stepobs T),
  length (r_total (mk_row s)) = length (s_gcs s) /\ length (r_gen (mk_row s)) = length (s_gcs s).
Proof. intros. cbn. rewrite !map_length. auto. Qed.
Print Assumptions C17_row_shape.

(* the same bound for the executable (Q) instance that is run against /repo *)
From Coq Require Import QArith.
From SV Require Import ExecProps.
Theorem C17_exec_steps_bounded : forall tbl eps (steps:list (@stepobs Q)),
  (List.length (fst (@run Q (QNum tbl) eps steps)) <= List.length steps)%nat.
Proof. exact run_exec_rows_bounded. Qed.
Print Assumptions C17_exec_steps_bounded.
