(* Property C11 — signal-driven strategies (windows, prices, schedules) follow their signal.
   PARTIAL.  Proved (model of the last lines of Schedule.charge_individually, on the clamp_power model of C05):
   the command min(clamp_power(schedule + additional), connector headroom) is never below
   min(clamp_power(schedule), headroom) for any non-negative additional power — i.e. never below the scheduled power
   as far as station rating, minimum powers and connector headroom allow — and never above the headroom.
   NOT proved: peak_load_window, flex_window and balanced_market are not modelled.  "No grid energy in discouraged
   periods when the encouraged ones suffice (1.3x) and the desired SoC is still reached", "balanced_market never pays
   more than greedy for the same energy" and the schedule clause at the level of station powers are evaluated by
   ./check C11 on generated scenarios (all window/price alignments, schedule-change events) — sampled. *)
From Coq Require Import Reals Lra.
From SV Require Import RNum Kernel KernelProps Service.
Open Scope R_scope.

Theorem C11_individual_command : forall sched add cur mx mn vm left, 0 <= add ->
  Rmin (@clamp_power R RNum sched cur mx mn vm) left <= indiv_command sched add cur mx mn vm left <= left.
Proof.
  intros sched add cur mx mn vm left Ha. unfold indiv_command. split; [|apply Rmin_r].
  apply Rle_min_compat_r, clamp_mono. lra.
Qed.
Print Assumptions C11_individual_command.

(* the clamp_power model used above IS the translated source of util.clamp_power (generated/Src.v is regenerated
   from /repo on every run; a change of the function's text breaks this obligation) *)
From SV Require Import Tie.
From SVG Require Import Src.
Theorem C11_clamp_power_is_source : forall power cs_cur cs_max cs_min veh_min : R,
  @clamp_power_src R RNum power cs_cur cs_max cs_min veh_min = @clamp_power R RNum power cs_cur cs_max cs_min veh_min.
Proof. apply clamp_power_is_source. Qed.
Print Assumptions C11_clamp_power_is_source.
