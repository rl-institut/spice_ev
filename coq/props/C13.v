(* Property C13 — generated grid schedules respect flexibility, connector limits and signals.
   PARTIAL.  Proved (axiom-free) on the model of events.get_schedule_from_csv (repaired revision):
   no generated signal — connector or vehicle — takes effect before it is sent; although only
   CHANGED targets generate events, a reader that applies the events up to a row's time sees exactly
   that row's scheduled target (read-back correctness of the change-point compression).  The pinned
   upstream reader is refuted for per-vehicle schedules (D4: stale start time).
   NOT proved: the schedule generator itself (flex band, energy distribution by bisection, 700
   lines): its outputs are checked on generated scenarios/grid series — every schedule value within
   the connector rating and (collective mode) the flexibility band recomputed by the implementation,
   the charge flag against the written residual load / curtailment columns (D2: stale index), and the
   end-to-end read back through a Scenario (target and per-vehicle schedule at every step). *)
From Coq Require Import QArith List Lia.
From SV Require Import SchedCsv SchedCsvProps.
Import ListNotations.
Open Scope Z_scope.

Theorem C13_no_signal_before_sent : forall start0 rows lt lw lv evs,
  Forall (fun r => Z.max start0 (r_sigcand r) <= r_start r) rows ->
  rows_events start0 rows lt lw lv = Some evs -> Forall ev_ok evs.
Proof.
  intros start0 rows lt lw lv evs _. apply rows_events_ok.
Qed.
Print Assumptions C13_no_signal_before_sent.

Theorem C13_readback_target : forall start0 rows lt lw lv evs cur, increasing rows -> oqeq cur lt ->
  rows_events start0 rows lt lw lv = Some evs ->
  forall r, In r rows -> oqeq (target_at evs (r_start r) cur) (Some (r_target r)).
Proof.
  intros start0. induction rows as [|r rest IH]; intros lt lw lv evs cur Hinc Hcur H x Hx; [contradiction|].
  destruct (rows_events_cons H) as (changed & vevs & lv' & tl & Ech & HV & _ & ER & ->).
  destruct (increasing_later r rest Hinc) as [Hlater Hinc'].
  (* the reader's value after this row's connector event, at any time from the row's start on *)
  assert (Hc1 : forall t, r_start r <= t ->
     oqeq (target_at (if changed then [SGc (r_start r) (Z.max start0 (r_sigcand r)) (r_target r) (r_window r)] else []) t cur)
          (if changed then Some (r_target r) else lt)).
  { intros t Ht. destruct changed; cbn; [rewrite (proj2 (Z.leb_le _ _)) by lia; cbn; apply Qeq_refl|exact Hcur]. }
  rewrite !target_at_app, (target_at_skip vevs) by (eapply Forall_impl; [|exact HV]; cbn; tauto).
  destruct Hx as [<-|Hx].
  - (* this row: no later event has started; an unchanged target is the one in force *)
    rewrite (target_at_skip tl).
    2:{ pose proof (rows_events_times _ _ _ _ _ _ ER) as HT. rewrite Forall_forall in *.
        intros e He. destruct (HT e He) as (r' & Hr' & -> & _). left. apply Hlater, Hr'. }
    eapply oqeq_trans; [apply Hc1; lia|]. destruct changed; [cbn; apply Qeq_refl|].
    symmetry in Ech. apply orb_false_iff in Ech. destruct Ech as [E1 _]. apply negb_false_iff, eqoq_iff in E1. apply oqeq_sym, E1.
  - assert (Ht : r_start r <= r_start x) by (rewrite Forall_forall in Hlater; specialize (Hlater x Hx); lia).
    exact (IH _ _ _ tl _ Hinc' (Hc1 _ Ht) ER x Hx).
Qed.
Print Assumptions C13_readback_target.

(* upstream, at time 0 vehicle 0 already sees 2, the value of the row that starts at 10 *)
Theorem C13_vehicle_schedule_refuted :
  match rows_events_orig (-1000) d4_rows None None [None] (0,0) with
  | Some evs => eqoq (veh_at evs 0 0 None) (Some 2%Q) | None => false end = true.
Proof. reflexivity. Qed.
Print Assumptions C13_vehicle_schedule_refuted.

Example C13_repaired_on_witness :
  match schedule_events (-1000) 1 d4_rows with
  | Some evs => eqoq (veh_at evs 0 0 None) (Some 1%Q) && eqoq (veh_at evs 0 10 None) (Some 2%Q) | None => false end = true.
Proof. reflexivity. Qed.
