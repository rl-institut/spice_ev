(* Property C01 — battery SoC stays in bounds and energy is conserved on every (dis)charge.
   Model: theories/Battery.v (Battery.load/unload/get_available_power/_adjust_soc, repaired
   revision; the pinned upstream loop condition is the [false] instance of the first argument of
   [outer]); theory: theories/BatteryProps.v (one loop iteration, the loop invariants, the account
   of _adjust_soc and of load), on the R instance (true exp/ln).
   Quantified over ALL curves (any point list the constructor accepts), capacities > 0,
   efficiencies > 0, start SoC <= 1 (negative allowed), durations > 0, every combination of
   max_power / target SoC / target power.
   PARTIAL — proved: direction, clipping at 100 %, reported delta, non-negative power, the energy
   account (charging: within the code's clipping tolerance capacity*EPS and exact below 100 %;
   discharging: exact), negative SoC left alone, get_available_power is pure.
   NOT proved (checked on every generated sequence by the Python predicate of ./check C01,
   classes C01/soc-bounds, C01/power-limit, C01/error-...): that the SoC stops at the requested
   target (section-level ingredient: C02_section_between), that the average power stays below
   the limit and the curve (ingredient: C02_section_energy_bounds), and that every request
   completes without error / the loop needs at most 2*|points|+4 iterations. *)
From Coq Require Import Reals Lra.
From SV Require Import Num RNum Curve Battery BatteryProps.
Open Scope R_scope.

Theorem C01_load : forall (b:@bat R) hours mp tg b' p d,
  @load R RNum b hours mp tg = Ok (b', p, d) -> wf_bat b -> 0 < hours ->
  b' = set_soc b (soc b') /\ d = soc b' - soc b /\ soc b <= soc b' <= 1 /\ 0 <= p /\
  0 <= p * eff b * hours - cap b * (soc b' - soc b) < cap b * eps b.
Proof.
  intros b hours mp tg b' p d H Hw Hh.
  destruct (load_account H Hw Hh) as (H1 & H2 & H3 & H4 & H5 & _). auto.
Qed.
Print Assumptions C01_load.

(* Battery.unload: SoC never rises; reported delta is the actual change; avg_power * T /
   efficiency equals the released energy exactly; a negative SoC is left alone *)
Theorem C01_unload : forall (b:@bat R) hours mp tg b' p d,
  @unload R RNum b hours mp tg = Ok (b', p, d) -> wf_bat b -> 0 < hours ->
  b' = set_soc b (soc b') /\ d = soc b - soc b' /\ soc b' <= soc b /\ 0 <= p /\
  p * hours = eff b * (cap b * (soc b - soc b')) /\ (soc b <= 0 -> soc b' = soc b).
Proof.
  intros b hours mp tg b' p d H Hw Hh. pose proof Hw as (Hc & Hf & He & Hs). unfold unload, unload_gen in H.
  destruct (match tg with TNone => _ | TSoc s => _ | TPower p0 => _ | TBoth _ _ => _ end) as [tgt0|];
    cbn [bind] in H; [|discriminate].
  rewrite nmax_R, nmin_R, zero_0 in H.
  set (tgt := Rmax (Rmin (soc b) 0) tgt0) in *.
  assert (Hfloor : Rmin (soc b) 0 <= tgt) by apply Rmax_l.
  destruct (nltb (eps b) (nsub tgt (soc b))) eqn:Eearly.
  - injection H as <- <- <-. split; [destruct b; reflexivity|]. lra.
  - cbn [nsub RNum] in Eearly. apply Rltb_f in Eearly.
    destruct (ndiv one (eff b)) as [ie|]; cbn [bind] in H; [|discriminate].
    destruct (clamped _ _ _ _) as [cl|]; cbn [bind] in H; [|discriminate].
    destruct (Radjust true b hours cl tgt) as [[b1 avg]|] eqn:Eadj; cbn [bind] in H; [|discriminate].
    injection H as <- <- <-.
    destruct (adjust_account Eadj Hw Hh) as (Hb & Hnear & Hdown & _).
    destruct Hdown as (H1 & H2); [lra|].
    assert (0 <= cap b * (soc b - soc b1)) by (apply Rmult_le_pos; lra).
    split; [exact Hb|]. repeat split; try assumption.
    + apply Rmult_le_pos; [|lra]. apply Rmult_le_reg_r with hours; lra.
    + rewrite <- H2. ring.
    + (* min(soc, 0) is a floor of the target: a non-positive SoC is not above it *)
      intros Hneg. rewrite Rmin_left in Hfloor by exact Hneg. destruct Hnear as [E _]; [lra | exact E].
Qed.
Print Assumptions C01_unload.

(* loop level, for every fuel, curve, section index: the invariant behind C01_load *)
Theorem C01_charge_loop : forall fx fuel c capa e tgt s rem bidx bsoc en s' en',
  @outer R RNum fx fuel c capa e false tgt s rem bidx bsoc en = Ok (s', en') ->
  0 < capa -> 0 < e -> tgt <= 1 -> s <= 1 ->
  s <= s' <= 1 /\ 0 <= (en' - en) - capa * (s' - s) < capa * e /\ (s = 1 -> s' = 1 /\ en' = en) /\
  (s' < 1 -> en' - en = capa * (s' - s)).
Proof. exact outer_charge. Qed.
Print Assumptions C01_charge_loop.

Theorem C01_discharge_loop : forall fx fuel c capa e tgt s rem bidx bsoc en s' en',
  @outer R RNum fx fuel c capa e true tgt s rem bidx bsoc en = Ok (s', en') ->
  0 < capa -> s <= 1 -> s' <= s /\ en' - en = capa * (s - s').
Proof. exact outer_discharge. Qed.
Print Assumptions C01_discharge_loop.

Theorem C01_avail_pure : forall (b:@bat R) hours b' p, @available_power R RNum b hours = Ok (b', p) -> b' = b.
Proof. intros b hours b' p H. apply bind_ok in H as ([[b1 p1] d] & _ & H). injection H as <- _. reflexivity. Qed.
Print Assumptions C01_avail_pure.

(* the 'unlimited' 2^64 kWh stationary battery satisfies the hypotheses of all of the above *)
Theorem C01_unlimited : forall (b:@bat R), unlimited b -> 0 < eff b -> 0 < eps b -> soc b <= 1 -> wf_bat b.
Proof. unfold unlimited, wf_bat. intros b ->. lra. Qed.
Print Assumptions C01_unlimited.

(* ---- the executable (Q) instance that is run against /repo and the proof (R) instance agree (Transfer*.v) ---- *)
(* Battery uses exp and ln: the R side of the transfer answers them from the same recorded table ([RNumT tbl]); it differs
   from [RNum], the instance of the theorems above, only in those two fields, and every table entry is validated against
   60-digit arithmetic on every run. *)
From Coq Require Import Qreals.
From SV Require Import Transfer TransferAll.
Theorem C01_exec_load_transfer : forall tbl b b' h mp mp' tg tg',
  SV_o_Battery_o_bat_R Q R QR b b' -> option_R Q R QR mp mp' -> SV_o_Battery_o_target_R Q R QR tg tg' ->
  res_R _ _ (prod_R _ _ (prod_R _ _ (SV_o_Battery_o_bat_R Q R QR) Q R QR) Q R QR)
    (@Battery.load Q (QNum tbl) b h mp tg) (@Battery.load R (RNumT tbl) b' (Q2R h) mp' tg').
Proof. exact load_transfer. Qed.
Print Assumptions C01_exec_load_transfer.
Theorem C01_exec_unload_transfer : forall tbl b b' h mp mp' tg tg',
  SV_o_Battery_o_bat_R Q R QR b b' -> option_R Q R QR mp mp' -> SV_o_Battery_o_target_R Q R QR tg tg' ->
  res_R _ _ (prod_R _ _ (prod_R _ _ (SV_o_Battery_o_bat_R Q R QR) Q R QR) Q R QR)
    (@Battery.unload Q (QNum tbl) b h mp tg) (@Battery.unload R (RNumT tbl) b' (Q2R h) mp' tg').
Proof. exact unload_transfer. Qed.
Print Assumptions C01_exec_unload_transfer.
