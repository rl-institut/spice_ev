(* Property C14 — distributed delegates per station type and honours the station count.
   The distributed strategy itself (sub-world construction, arrival look-ahead, prioritisation,
   virtual stations for batteries) is NOT modelled.  What is formal: the delegated strategies
   (greedy at opportunity connectors, balanced at depots) are the Strat model, tied to /repo by
   exact per-step correspondence (shared with C10), and a step of either strategy only touches
   the objects attached to the vehicles' own connector (C14_vehicle_step_local).  Delegation,
   independence between connectors and the number_cs bound are compared on exact runs
   (implementation vs implementation) by ./check C14 — sampled, not proved. *)
From Coq Require Import List.
From SV Require Import Num Strat Dict.

(* assigning to one connector's entry leaves every other connector's entry alone *)
Theorem C14_assign_other : forall A k k' (v:A) l, k' <> k -> @Strat.lookup A k' (Strat.assign k v l) = Strat.lookup k' l.
Proof. exact @lookup_assign_other. Qed.
Print Assumptions C14_assign_other.

(* the delegated per-vehicle step (greedy / balanced) is local: it touches only the vehicle's own connector, station and
   vehicle entry — every other connector keeps loads, limit, cost and supporting-battery budget (any number type) *)
From SV Require Import StratLocal.
Theorem C14_vehicle_step_local : forall T (N:Num T) (s:strat) (o:@sopts T) w cmds avail vid w' cmds' avail',
  @vehicle_step T N s o (w, cmds, avail) vid = Ok (w', cmds', avail') ->
  exists g0 c0, (forall g, g <> g0 -> Strat.lookup g (sw_gcs w') = Strat.lookup g (sw_gcs w) /\ Strat.lookup g avail' = Strat.lookup g avail) /\
                (forall c, c <> c0 -> Strat.lookup c (sw_css w') = Strat.lookup c (sw_css w) /\ Strat.lookup c cmds' = Strat.lookup c cmds) /\
                (forall v, v <> vid -> Strat.lookup v (sw_veh w') = Strat.lookup v (sw_veh w)) /\
                sw_bats w' = sw_bats w /\ sw_order w' = sw_order w.
Proof. intros T N. exact (@vehicle_step_local T N). Qed.
Print Assumptions C14_vehicle_step_local.
