(* Property C16 — simulations are deterministic, isolated and invariant under time relabelling.
   PARTIAL.  Proved (any number type, axiom-free): shifting EVERY timestamp of the event model
   (clock, start/signal times, announced arrivals/departures) by the same amount commutes with
   event delivery and with the pre-step of every timestep — loads, limits, prices, SoCs,
   counters and errors are unchanged.  (This is stronger than whole weeks; the weekday only
   enters through the average fixed load, core standing times and window lookups, which are
   outside this model.)  Determinism of the models is trivial (they are functions).
   NOT proved, because a functional model cannot exhibit it: object aliasing, state kept between
   runs on one Scenario object, mutation of the scenario definition.  These are exercised as
   histories on the implementation (same scenario twice from a fresh load and on the same
   object; deep comparison of the components before/after; shift by k*7 days; an added unrelated
   grid connector) — implementation-vs-implementation tests, labelled as such. *)
From Coq Require Import ZArith List Lia.
From SV Require Import Num Events EventsShift.
Open Scope Z_scope.

Theorem C16_delivery_shift_invariant : forall T d t0 delta n (evs:list (@event_t T)),
  event_steps (t0 + d) delta n (map (sh_ev d) evs) = map (map (sh_ev d)) (event_steps t0 delta n evs).
Proof. intros. unfold event_steps. rewrite map_map. apply map_ext. intros i. apply bucket_shift. Qed.
Print Assumptions C16_delivery_shift_invariant.

Theorem C16_pre_step_shift_invariant : forall T (N:Num T) d o (w:@world T) evs,
  @pre_step T N o (sh_world d w) (map (sh_ev d) evs) =
  (sh_world d (fst (@pre_step T N o w evs)), snd (@pre_step T N o w evs)).
Proof.
  intros T N d o w evs. unfold pre_step. cbn [w_future sh_world]. rewrite <- map_app, sort_events_shift.
  (* [w1]: the world with the clock advanced; on the shifted side it is the shift of [w1] (t + d + i = t + i + d) *)
  match goal with |- context [apply_due o ?x (sort_events _)] => set (w1 := x) end.
  match goal with |- context [apply_due o ?x (map _ _)] =>
    replace x with (sh_world d w1) by (unfold sh_world, w1; cbn; f_equal; lia) end.
  rewrite apply_due_shift.
  destruct (apply_due o w1 _) as [w2 [x|]]; [reflexivity|apply finish_shift].
Qed.
Print Assumptions C16_pre_step_shift_invariant.

(* what the shift leaves untouched *)
Theorem C16_shift_keeps_values : forall T d (w:@world T),
  w_gcs (sh_world d w) = w_gcs w /\ w_desired_cnt (sh_world d w) = w_desired_cnt w /\ w_margin_cnt (sh_world d w) = w_margin_cnt w /\
  map (fun kv => (fst kv, v_soc (snd kv))) (w_veh (sh_world d w)) = map (fun kv => (fst kv, v_soc (snd kv))) (w_veh w).
Proof. repeat split. cbn. rewrite map_map. reflexivity. Qed.
Print Assumptions C16_shift_keeps_values.

(* isolation (greedy / balanced decision model): the step of one vehicle leaves every unrelated connector, station and
   vehicle entry untouched — no hidden coupling between connectors in the modelled strategies *)
From SV Require Import Strat StratLocal.
Theorem C16_unrelated_connector_untouched : forall T (N:Num T) (s:strat) (o:@sopts T) w cmds avail vid w' cmds' avail',
  @vehicle_step T N s o (w, cmds, avail) vid = Ok (w', cmds', avail') ->
  exists g0 c0, (forall g, g <> g0 -> Strat.lookup g (sw_gcs w') = Strat.lookup g (sw_gcs w) /\ Strat.lookup g avail' = Strat.lookup g avail) /\
                (forall c, c <> c0 -> Strat.lookup c (sw_css w') = Strat.lookup c (sw_css w) /\ Strat.lookup c cmds' = Strat.lookup c cmds) /\
                (forall v, v <> vid -> Strat.lookup v (sw_veh w') = Strat.lookup v (sw_veh w)) /\
                sw_bats w' = sw_bats w /\ sw_order w' = sw_order w.
Proof. intros T N. exact (@vehicle_step_local T N). Qed.
Print Assumptions C16_unrelated_connector_untouched.
