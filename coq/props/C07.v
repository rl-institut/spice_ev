(* Property C07 — events take effect at the right timestep and none is lost.
   Model: theories/Events.v (Events.get_event_steps, EnergyValuesList.get_events, the queue
   and per-type effects of Strategy.step), tied to /repo by exact correspondence on random
   event histories (./check C07), which also compares the implementation with an independent
   declarative reference.  Scheduling theorems hold for any number type and are axiom-free. *)
From Coq Require Import ZArith Reals List Sorted Permutation Lia.
From SV Require Import Num RNum Kernel KernelProps Events Sorting EventsProps.
Import ListNotations.
Open Scope Z_scope.

(* delivery step = ceiling of (signal - t0)/interval: never before the event is signalled *)
Theorem C07_delivery_is_ceiling : forall T t0 delta (e:@event_t T), 0 < delta ->
  let i := event_index t0 delta e in (i - 1) * delta < e_signal e - t0 <= i * delta.
Proof.
  intros T t0 delta e Hd. unfold event_index. Z.div_mod_to_equations. nia.
Qed.
Print Assumptions C07_delivery_is_ceiling.

(* events signalled before the start go to step 0; each event is delivered to exactly one step
   (buckets are order-preserving filters of the input) *)
Theorem C07_buckets : forall T t0 delta n (evs:list (@event_t T)) i, (i < n)%nat ->
  bucket t0 delta n evs i = filter (fun e => match delivered_at t0 delta n e with Some j => Nat.eqb j i | None => false end) evs.
Proof.
  intros T t0 delta n evs i Hi. induction evs as [|e r IH]; cbn; [reflexivity|]. rewrite IH. unfold delivered_at.
  destruct (Z.ltb_spec (event_index t0 delta e) 0), (Z.leb_spec (Z.of_nat n) (event_index t0 delta e)), n; try lia; try reflexivity.
  - rewrite Nat.eqb_sym. reflexivity.
  - destruct (Z.eqb_spec (event_index t0 delta e) (Z.of_nat i)), (Nat.eqb_spec (Z.to_nat (event_index t0 delta e)) i); reflexivity || lia.
Qed.
Print Assumptions C07_buckets.

(* only events signalled at or after the end of the horizon are ignored *)
Theorem C07_only_late_ignored : forall T t0 delta n (e:@event_t T), (0 < n)%nat ->
  (delivered_at t0 delta n e = None <-> Z.of_nat n <= event_index t0 delta e).
Proof.
  intros T t0 delta n e Hn. unfold delivered_at.
  destruct (Z.ltb_spec (event_index t0 delta e) 0), (Z.leb_spec (Z.of_nat n) (event_index t0 delta e)), n;
    split; discriminate || lia || auto.
Qed.
Print Assumptions C07_only_late_ignored.

(* the loop over the sorted queue ([apply_due], with its time test) applies exactly the events that have started
   ([apply_all], without) and leaves the others *)
Theorem C07_queue_loop : forall T (N:Num T) o (evs:list (@event_t T)) w, sortedS evs ->
  exists due later, evs = due ++ later /\ Forall (fun e => e_start e <= w_time w) due /\
    Forall (fun e => w_time w < e_start e) later /\ @apply_due T N o w evs = @apply_all T N o w due later.
Proof.
  intros T N o. induction evs as [|e r IH]; intros w Hs.
  - exists [], []. repeat split; constructor.
  - cbn [apply_due]. apply StronglySorted_inv in Hs. destruct Hs as [Hs1 Hs2]. destruct (e_start e <=? w_time w) eqn:E.
    + apply Z.leb_le in E. pose proof (apply_event_time o (set_future w r) e) as Ht.
      destruct (apply_event o (set_future w r) e) as [w' x] eqn:A; cbn in Ht.
      destruct (IH w' Hs1) as (due & later & -> & H2 & H3 & H4). rewrite Ht in *.
      (* if Python raises, the rest stays queued *)
      exists (e :: due), later. cbn [apply_all app]. rewrite A. destruct x; auto.
    + exists [], (e :: r). repeat split; [constructor|].
      constructor; [lia|]. eapply Forall_impl; [|exact Hs2]. unfold le_start. lia.
Qed.
Print Assumptions C07_queue_loop.

Theorem C07_sort_is_permutation_and_sorted : forall T (l:list (@event_t T)),
  Permutation (@sort_events T l) l /\ sortedS (@sort_events T l).
Proof. split; [apply sort_events_perm|apply sort_events_sorted]. Qed.
Print Assumptions C07_sort_is_permutation_and_sorted.

(* one pre-step: the clock advances by one interval; exactly the queued events that have
   started are applied, in chronological (stable) order; the others stay queued, sorted —
   so an event takes effect at the first step at or after its start, once, and none is lost *)
Theorem C07_step_applies_due_events : forall T (N:Num T) o w (evs:list (@event_t T)) w',
  @pre_step T N o w evs = (w', None) ->
  w_time w' = w_time w + o_interval o /\
  sortedS (w_future w') /\
  Forall (fun e => w_time w' < e_start e) (w_future w') /\
  exists due, Permutation (w_future w ++ evs) (due ++ w_future w') /\
              Forall (fun e => e_start e <= w_time w') due /\ sortedS due.
Proof.
  intros T N o w evs w'. unfold pre_step.
  set (w1 := {| w_time := w_time w + o_interval o; w_gcs := w_gcs w; w_veh := w_veh w; w_cs := w_cs w; w_bat := w_bat w;
               w_future := w_future w; w_desired_cnt := w_desired_cnt w; w_margin_cnt := w_margin_cnt w; w_tracker := w_tracker w |}).
  destruct (C07_sort_is_permutation_and_sorted T (w_future w1 ++ evs)) as [Hp Hs].
  destruct (C07_queue_loop T N o _ w1 Hs) as (due & later & H1 & H2 & H3 & ->).
  destruct (apply_all o w1 due later) as [w2 [x|]] eqn:A; [discriminate|]. intros H.
  destruct (apply_all_ok o due w1 later w2 A) as [Hf Ht2]. destruct (finish_future w2 w' None H) as [Hq Ht].
  rewrite H1 in Hs, Hp. apply StronglySorted_app_iff in Hs. rewrite Hq, Hf, Ht, Ht2.
  split; [reflexivity|]. split; [apply Hs|]. split; [exact H3|].
  exists due. split; [symmetry; exact Hp|]. split; [exact H2|apply Hs].
Qed.
Print Assumptions C07_step_applies_due_events.

(* a time series: factor*value at start + i*step, and zero after its last value *)
Theorem C07_series_values : forall mk gc name (step:Z) foresight (factor:R) start0 (vals:list R) start i v,
  nth_error vals i = Some v ->
  exists e, nth_error (@series_events R RNum mk gc name start step foresight factor start0 vals) i = Some e /\
    e_start e = start + Z.of_nat i * step /\ e_kind e = mk gc name (v * factor)%R.
Proof.
  intros mk gc name step fs factor start0 vals start i v H.
  rewrite series_nth_error, nth_error_app1, H by (apply nth_error_Some; congruence).
  eexists. repeat split.
Qed.
Print Assumptions C07_series_values.
Theorem C07_series_tail_zero : forall mk gc name (step:Z) foresight (factor:R) start0 (vals:list R) start,
  exists e, nth_error (@series_events R RNum mk gc name start step foresight factor start0 vals) (List.length vals) = Some e /\
    e_start e = start + Z.of_nat (List.length vals) * step /\ e_kind e = mk gc name 0%R.
Proof.
  intros mk gc name step fs factor start0 vals start.
  rewrite series_nth_error, nth_error_app2, Nat.sub_diag by lia.
  eexists. split; [reflexivity|]. split; [reflexivity|]. cbn [e_kind nmul RNum]. rewrite zero_0, Rmult_0_l. reflexivity.
Qed.
Print Assumptions C07_series_tail_zero.

(* a grid-operator limit can lower but never raise the connector rating — for every event *)
Theorem C07_limit_only_lowers : forall o (w:@world R) ev, limits_ok w -> limits_ok (fst (@apply_event R RNum o w ev)).
Proof.
  intros o w ev H. destruct (apply_event_effect o w ev) as [|gc g g' L Hm Hc|]; [exact H| |exact H].
  apply limits_ok_upd; [exact H|]. rewrite Hm. intros Hr. specialize (H gc g L Hr). destruct Hc as [->|[m ->]]; [exact H|].
  pose proof (apply_limit_le_rating (g_maxp g) (g_cur g) m Hr H) as Q.
  destruct (apply_limit (g_maxp g) (g_cur g) m); [exact Q|exact I].
Qed.
Print Assumptions C07_limit_only_lowers.

(* ---- the executable (Q) instance that is run against /repo and the proof (R) instance agree (Transfer*.v) ---- *)
From Coq Require Import Qreals.
From SV Require Import Transfer TransferAll.
Theorem C07_exec_pre_step_is_proof_model : forall tbl o o' w w' evs evs',
  SV_o_Events_o_options_R Q R QR o o' -> SV_o_Events_o_world_R Q R QR w w' ->
  list_R _ _ (SV_o_Events_o_event_t_R Q R QR) evs evs' ->
  prod_R _ _ (SV_o_Events_o_world_R Q R QR) _ _ (option_R _ _ err_R) (@pre_step Q (QNum tbl) o w evs) (@pre_step R RNum o' w' evs').
Proof. exact pre_step_transfer. Qed.
Print Assumptions C07_exec_pre_step_is_proof_model.
