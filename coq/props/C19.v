(* Property C19 — scenario generators emit well-formed, reproducible, drivable scenarios.
   PARTIAL.  Proved on the models (theories/Gen.v) of the trip loops of generate_from_statistics.py
   (per vehicle; the random trips are an arbitrary input stream, so the statements hold for every seed,
   duration, start time, no-drive-day set and fleet) and of generate_from_csv.py (per vehicle):
   - statistics: the vehicle's events are (departure, arrival) pairs in chronological order; a departure
     announces exactly the following arrival; an arrival followed by a trip announces exactly that trip's
     departure, strictly later, and its desired SoC is at least the minimum and covers that trip's
     consumption times (1 + buffer); the newest arrival either still carries the placeholder or announces a
     strictly later departure with desired SoC >= minimum; the initially announced departure is the first
     departure event and the initial desired SoC is at least the minimum;
   - trip table (trips in departure order, each departing no earlier than the previous arrival): arrival and
     departure events alternate chronologically; an arrival announces exactly the following departure; its
     desired SoC is at least the minimum and covers the summed consumption until the next connection; a
     departure announces an arrival not before itself and not after the next arrival event; the model's
     stable sort returns a departure-ordered permutation of the table.
   NOT proved (checked on generated inputs against the implementation only): the SimBEV generator, the random
   trip distribution (soc_delta within [0,1] for the shipped types), reproducibility from the seed, loading of
   the scenario and the greedy run without negative SoC.
   Known finding: an arrival with no later accepted trip within the two extra days keeps desired_soc 0 and
   no announced departure (C19_statistics_open_end characterises exactly when). *)
From Coq Require Import Reals List Permutation Lia.
From SV Require Import Num RNum Gen Sorting GenProps.
Import ListNotations.
Open Scope R_scope.

Theorem C19_statistics_events_wellformed : forall m buf days trips,
  Forall (fun tr => (0 <= s_dur tr)%Z) trips ->
  swf m (1 + buf) (st_rev (@stat_vehicle R RNum m buf days trips)).
Proof. intros m buf days trips H. apply (stat_vehicle_inv m buf days trips H). Qed.
Print Assumptions C19_statistics_events_wellformed.

Theorem C19_statistics_initial_announcement : forall m buf days trips,
  Forall (fun tr => (0 <= s_dur tr)%Z) trips ->
  sinit_ok m (@stat_vehicle R RNum m buf days trips).
Proof. intros m buf days trips H. apply (stat_vehicle_inv m buf days trips H). Qed.
Print Assumptions C19_statistics_initial_announcement.

Theorem C19_statistics_open_end : forall m buf days (s:sstate R) tr a ds sd rest,
  st_rev (stat_step m buf days s tr) = GArr a None ds sd :: rest ->
  (st_rev s = GArr a None ds sd :: rest /\ (s_dep tr <= a)%Z) \/ (days > s_day tr)%nat.
Proof.
  intros m buf days s tr a ds sd rest. unfold stat_step, stat_append.
  destruct (days <=? s_day tr)%nat eqn:Ed; [|intros _; right; apply Nat.leb_gt, Ed].
  destruct (st_rev s) as [|[t eta|a0 etd0 ds0 sd0] rest0]; try discriminate.
  destruct (a0 >=? s_dep tr)%Z eqn:Ea; cbn [st_rev]; [|discriminate].
  intros H. left. split; [exact H|]. injection H as -> _ _ _ _. lia.
Qed.
Print Assumptions C19_statistics_open_end.

Theorem C19_csv_events_wellformed : forall m stop rows prev, chain prev rows ->
  cfinal m (cs_rev (@csv_rows R RNum m stop {| cs_sum := zero; cs_init := m; cs_has := false; cs_rev := [] |} rows)).
Proof. intros m stop rows prev H. eapply csv_rows_wf; [exact H|]. left. split; reflexivity. Qed.
Print Assumptions C19_csv_events_wellformed.

Theorem C19_csv_sort : forall rows : list (crow R), dep_sorted (sort_rows rows) /\ Permutation rows (sort_rows rows).
Proof. intros rows. split; [apply sort_rows_sorted|]. rewrite sort_rows_is. symmetry. apply sort_by_perm. Qed.
Print Assumptions C19_csv_sort.

(* non-vacuity: a two-trip stream / table meets the hypotheses *)
Example C19_hyp_stat : Forall (fun tr : strip R => (0 <= s_dur tr)%Z)
  [ {| s_day := 0; s_dep := 480; s_dur := 60; s_sd := 0.2 |}; {| s_day := 1; s_dep := 1920; s_dur := 30; s_sd := 0.1 |} ].
Proof. repeat constructor; cbn; discriminate. Qed.
Example C19_hyp_csv : chain 0 [ {| c_dep := 10; c_arr := 20; c_delta := 0.2; c_conn := false |};
                                {| c_dep := 30; c_arr := 45; c_delta := 0.3; c_conn := true |} ].
Proof. cbn. repeat split; discriminate. Qed.

(* ---- the executable (Q) instance that is run against /repo and the proof (R) instance agree (Transfer*.v) ---- *)
From Coq Require Import Qreals.
From SV Require Import Transfer TransferAll.
Theorem C19_exec_stat_vehicle_is_proof_model : forall tbl ms buf days trips trips', list_R _ _ (SV_o_Gen_o_strip_R Q R QR) trips trips' ->
  SV_o_Gen_o_sstate_R Q R QR (@stat_vehicle Q (QNum tbl) ms buf days trips) (@stat_vehicle R RNum (Q2R ms) (Q2R buf) days trips').
Proof. exact stat_vehicle_transfer. Qed.
Print Assumptions C19_exec_stat_vehicle_is_proof_model.
Theorem C19_exec_csv_vehicle_is_proof_model : forall tbl ms stop rows rows', list_R _ _ (SV_o_Gen_o_crow_R Q R QR) rows rows' ->
  SV_o_Gen_o_cstate_R Q R QR (@csv_vehicle Q (QNum tbl) ms stop rows) (@csv_vehicle R RNum (Q2R ms) stop rows').
Proof. exact csv_vehicle_transfer. Qed.
Print Assumptions C19_exec_csv_vehicle_is_proof_model.
