(* Property C02 — charging dynamics follow the charging curve (analytic step = ODE solution).
   PARTIAL.  Proved (for all m <> 0, n, c, s0, t): on one linear section P(s) = m*s + n the
   closed forms _adjust_soc evaluates are THE solution of dSoC/dt = P(SoC)/c (derivative and
   initial value; the |m| < EPS branch is the constant-power solution for P = n), the code's
   time-to-breakpoint lands exactly on the breakpoint, steps compose (semigroup: two calls =
   one call over the summed duration, on a section), the state moves monotonically between
   the current SoC and the breakpoint, the section's average power lies between the powers
   at its two ends; a target-power request that reaches its target below 100 % delivers
   exactly that power.
   NOT proved: that the composition over SEVERAL sections (re-chording from the current SoC,
   skipping sub-EPS remnants) equals the ODE flow of the whole piecewise-linear curve, hence
   split-vs-single-call equality and monotonicity in time/limit ACROSS section boundaries, and
   'otherwise exactly what an unrestricted request would deliver'.  Those are compared on
   generated relational cases by ./check C02 (implementation, exact numbers, tolerance 4*EPS). *)
From Coq Require Import Reals Lra.
From Coquelicot Require Import Coquelicot.
From SV Require Import Num RNum Battery BatteryProps BatteryODE.
Open Scope R_scope.

Theorem C02_section_ode : forall m n c s0 t, m <> 0 -> c <> 0 ->
  is_derive (fun t => flow m n c s0 t) t ((m * flow m n c s0 t + n) / c) /\ flow m n c s0 0 = s0.
Proof. split; [apply flow_ode; assumption | apply flow_0]. Qed.
Print Assumptions C02_section_ode.

Theorem C02_section_flat : forall n c s0 t,
  is_derive (fun t => flow_flat n c s0 t) t (n / c) /\ flow_flat n c s0 0 = s0.
Proof. split; [apply flow_flat_ode | apply flow_flat_0]. Qed.
Print Assumptions C02_section_flat.

Theorem C02_section_time : forall m n c s0 x2, m <> 0 -> c <> 0 -> 0 < (x2 + n / m) / (s0 + n / m) ->
  flow m n c s0 (ln ((x2 + n / m) / (s0 + n / m)) * c / m) = x2.
Proof. exact flow_time. Qed.
Print Assumptions C02_section_time.

Theorem C02_section_semigroup : forall m n c s0 t1 t2, m <> 0 ->
  flow m n c (flow m n c s0 t1) t2 = flow m n c s0 (t1 + t2).
Proof. exact flow_semigroup. Qed.
Print Assumptions C02_section_semigroup.

Theorem C02_section_between : forall m n c s0 x2 t, m <> 0 -> c <> 0 -> 0 < (x2 + n / m) / (s0 + n / m) ->
  let t0 := ln ((x2 + n / m) / (s0 + n / m)) * c / m in
  (0 <= t <= t0 \/ t0 <= t <= 0) ->
  (s0 <= flow m n c s0 t <= x2) \/ (x2 <= flow m n c s0 t <= s0).
Proof.
  intros m n c s0 x2 t Hm Hc Hq t0 Ht.
  pose proof (flow_time m n c s0 x2 Hm Hc Hq) as Hx2. fold t0 in Hx2.
  (* the flow is monotone in t, starts at s0 and is at x2 at time t0 *)
  pose proof (flow_monotone m n c s0 0 t Hm Hc) as H1.
  pose proof (flow_monotone m n c s0 t t0 Hm Hc) as H2.
  pose proof (flow_monotone m n c s0 t0 t Hm Hc) as H3.
  pose proof (flow_monotone m n c s0 t 0 Hm Hc) as H4.
  rewrite flow_0 in *. lra.
Qed.
Print Assumptions C02_section_between.

Theorem C02_section_energy_bounds : forall m n c s0 t, m <> 0 -> 0 < c -> 0 <= t ->
  let new := flow m n c s0 t in
  Rmin (m * s0 + n) (m * new + n) * t <= c * (new - s0) <= Rmax (m * s0 + n) (m * new + n) * t.
Proof.
  intros m n c s0 t Hm Hc Ht new.
  set (x := m / c * t). set (P0 := m * s0 + n).
  assert (HP1 : m * new + n = P0 * exp x) by (apply flow_power; exact Hm).
  assert (Hd : c * (new - s0) = P0 * (c / m * (exp x - 1))) by (unfold new, flow, P0, x; field; exact Hm).
  rewrite HP1, Hd, Rmult_min_distr_r, Rmult_max_distr_r by exact Ht.
  (* x <= e^x - 1 <= x e^x, scaled by c/m (which turns x into t) and then by P(s0), each of either sign *)
  replace (P0 * t) with (P0 * (c / m * x)) by (unfold x; field; split; lra).
  replace (P0 * exp x * t) with (P0 * (c / m * (x * exp x))) by (unfold x; field; split; lra).
  apply between_min_max, scale_between, scale_between. left. apply exp_minus_1_bounds.
Qed.
Print Assumptions C02_section_energy_bounds.

(* the model's exp-branch expression is [flow]: ties the lemmas above to Battery.outer *)
Theorem C02_model_uses_flow : forall m n c s t, m <> 0 ->
  @nadd R RNum (@nneg R RNum (n / m)) (@nmul R RNum (@nadd R RNum (n / m) s) (exp (m / c * t))) = flow m n c s t.
Proof. intros m n c s t Hm. rewrite nneg_R. cbn. unfold flow. field. exact Hm. Qed.
Print Assumptions C02_model_uses_flow.

Theorem C02_target_power : forall (b:@bat R) hours mp p0 b' p d,
  @load R RNum b hours mp (TPower p0) = Ok (b', p, d) -> wf_bat b -> 0 < hours -> 0 <= p0 ->
  soc b' = soc b + p0 * eff b * hours / cap b -> soc b' < 1 -> p = p0.
Proof.
  intros b hours mp p0 b' p d H Hw Hh _ Hreach Hlt.
  destruct (load_account H Hw Hh) as (_ & _ & _ & _ & _ & Hex).
  destruct Hw as (Hc & Hf & _ & _).
  (* below 100 % the account is exact: p * eff * hours = cap * (p0 * eff * hours / cap) *)
  specialize (Hex Hlt). rewrite Hreach in Hex.
  apply Rmult_eq_reg_r with (eff b * hours); [|apply Rgt_not_eq, Rmult_lt_0_compat; assumption].
  rewrite <- Rmult_assoc, Hex. field. lra.
Qed.
Print Assumptions C02_target_power.
