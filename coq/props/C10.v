(* Property C10 — greedy and balanced follow their documented rule exactly.
   PARTIAL.  Proved on the model of the per-vehicle decision (Strat.vehicle_charge, R instance), for all states:
   - greedy, normal price, desired SoC reached (within EPS): nothing is charged;
   - greedy, normal price, vehicle in need: exactly one battery request whose target power is
     clamp_power(min(power needed to reach the desired SoC in this step, remaining connector power + supporting
     stationary-battery power)); it is >= 0, at most the station's remaining rating, at most the power needed (so the
     request aims at or below the desired SoC — C09_greedy_request) and at most the available power;
   - greedy, cheap price: one request limited to clamp_power(remaining connector power), at most the station's remaining
     rating and the remaining connector power;
   - balanced, normal price, in need, k = ceil(time to departure / interval) > 0: target power
     clamp_power(min(power needed / k, remaining connector power)) — never more than the even share.
   The model is tied to /repo by the exact per-step correspondence of ./check C10 (commands, SoCs, loads of every
   sampled recorded step).  NOT proved: a refinement of the whole strategy_step (surplus distribution, stationary
   batteries, dictionary bookkeeping) to an independent specification; the rule's consequences for those parts are
   evaluated on the recorded steps. *)
From Coq Require Import Reals Lra.
From SV Require Import Num RNum Battery KernelProps Strat Service StratProps.
Open Scope R_scope.

Theorem C10_greedy_idle : forall o v cs left av, vh_desired v - soc (vh_bat v) <= so_eps o ->
  @vehicle_charge R RNum SGreedy o v cs left av false = Ok (vh_bat v, 0, false).
Proof.
  intros o v cs left av H. unfold vehicle_charge. cbn [nsub RNum]. rewrite Rltb_false by lra. rewrite zero_0. reflexivity.
Qed.
Print Assumptions C10_greedy_idle.

Theorem C10_greedy_request : forall o v cs left av r, so_eps o < vh_desired v - soc (vh_bat v) -> eff (vh_bat v) <> 0 -> 0 <= so_eps o ->
  0 <= cap (vh_bat v) -> 0 < eff (vh_bat v) -> 0 <= so_tsph o ->
  @vehicle_charge R RNum SGreedy o v cs left av false = r ->
  let pn := (vh_desired v - soc (vh_bat v)) * cap (vh_bat v) / eff (vh_bat v) * so_tsph o in
  let p := clampv v cs (Rmin pn (left + av)) in
  r = (let! (b', a, _) := @load R RNum (vh_bat v) (so_hours o) None (TPower p) in Ok (b', a, true)) /\
  0 <= p /\ p <= Rmax (cs_maxp cs - cs_cur cs) 0 /\ p <= pn /\ (0 <= left + av -> p <= left + av).
Proof.
  intros o v cs left av r Hd He Heps Hcap Heff Hts Hr pn p. unfold vehicle_charge in Hr. cbn [nltb nsub nmul ndiv nadd RNum] in Hr.
  rewrite Rltb_true in Hr by lra. rewrite Rdivr_ok in Hr by exact He. cbn [bind] in Hr. rewrite nmin_R in Hr.
  split; [symmetry; exact Hr|]. apply clampv_min_bounds.
  unfold pn. apply Rmult_le_pos; [|exact Hts]. apply Rle_mult_inv_pos; [|exact Heff]. apply Rmult_le_pos; lra.
Qed.
Print Assumptions C10_greedy_request.

Theorem C10_greedy_cheap : forall o v cs left av,
  @vehicle_charge R RNum SGreedy o v cs left av true =
    (let! (b', a, _) := @load R RNum (vh_bat v) (so_hours o) (Some (clampv v cs left)) TNone in Ok (b', a, false)) /\
  0 <= clampv v cs left <= Rmax (cs_maxp cs - cs_cur cs) 0 /\ (0 <= left -> clampv v cs left <= left).
Proof.
  intros o v cs left av. split; [reflexivity|]. unfold clampv.
  split; [split; [apply clamp_nonneg|apply clamp_le_headroom]|]. intros H. apply clamp_le_power. exact H.
Qed.
Print Assumptions C10_greedy_cheap.

Theorem C10_balanced_request : forall o v cs left av etd r, so_eps o < vh_desired v - soc (vh_bat v) -> 0 < eff (vh_bat v) -> 0 <= so_eps o ->
  0 <= cap (vh_bat v) -> 0 <= so_tsph o -> vh_etd v = Some etd -> (0 < steps_left (etd - so_now o) (so_interval o))%Z ->
  @vehicle_charge R RNum SBalanced o v cs left av false = r ->
  let k := steps_left (etd - so_now o) (so_interval o) in
  let q := (vh_desired v - soc (vh_bat v)) * cap (vh_bat v) / eff (vh_bat v) * so_tsph o / IZR k in
  let p := clampv v cs (Rmin q left) in
  r = (let! (b', a, _) := @load R RNum (vh_bat v) (so_hours o) None (TPower p) in Ok (b', a, true)) /\
  0 <= p /\ p <= Rmax (cs_maxp cs - cs_cur cs) 0 /\ p <= q /\ (0 <= left -> p <= left).
Proof.
  intros o v cs left av etd r Hd Heff Heps Hcap Hts Hetd Hk Hr k q p. unfold vehicle_charge in Hr. cbn [nltb nsub nmul ndiv nadd RNum] in Hr.
  rewrite Rltb_true in Hr by lra. rewrite Hetd in Hr. rewrite Rdivr_ok in Hr by lra. cbn [bind] in Hr.
  change (- ((etd - so_now o) / - so_interval o))%Z with k in Hr.
  rewrite (proj2 (Z.ltb_lt 0 k) Hk) in Hr. assert (HkR : 0 < IZR k) by (apply IZR_lt; exact Hk).
  unfold QArith_base.inject_Z in Hr. rewrite Q2R_Z, Rdivr_ok in Hr by lra. cbn [bind] in Hr. rewrite nmin_R in Hr.
  split; [symmetry; exact Hr|]. apply clampv_min_bounds.
  unfold q. apply Rle_mult_inv_pos; [|exact HkR]. apply Rmult_le_pos; [|exact Hts].
  apply Rle_mult_inv_pos; [|exact Heff]. apply Rmult_le_pos; lra.
Qed.
Print Assumptions C10_balanced_request.

(* the clamp_power model used above IS the translated source of util.clamp_power (generated/Src.v is regenerated
   from /repo on every run; a change of the function's text breaks this obligation) *)
From SV Require Import Kernel Tie.
From SVG Require Import Src.
Theorem C10_clamp_power_is_source : forall power cs_cur cs_max cs_min veh_min : R,
  @clamp_power_src R RNum power cs_cur cs_max cs_min veh_min = @clamp_power R RNum power cs_cur cs_max cs_min veh_min.
Proof. apply clamp_power_is_source. Qed.
Print Assumptions C10_clamp_power_is_source.

(* ---- the executable (Q) instance that is run against /repo and the proof (R) instance agree (Transfer*.v) ---- *)
From Coq Require Import Qreals.
From SV Require Import Transfer TransferAll.
Theorem C10_exec_strategy_step_transfer : forall tbl s o o' w w',
  SV_o_Strat_o_sopts_R Q R QR o o' -> SV_o_Strat_o_sworld_R Q R QR w w' ->
  res_R _ _ (prod_R _ _ (SV_o_Strat_o_sworld_R Q R QR) _ _ (list_R _ _ (prod_R _ _ string_R Q R QR)))
    (@strategy_step Q (QNum tbl) s o w) (@strategy_step R (RNumT tbl) s o' w').
Proof. exact strategy_step_transfer. Qed.
Print Assumptions C10_exec_strategy_step_transfer.
