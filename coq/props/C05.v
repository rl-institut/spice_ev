(* Property C05 — charging-station and vehicle power limits hold for every command.
   PARTIAL.  Proved: util.clamp_power (the function through which every strategy sizes a
   station's power) returns a non-negative power within the station's remaining headroom and
   the offered power, respects station and vehicle minimum power when positive, is monotone;
   the run loop flags any step in which a station exceeds its (concurrency-scaled) maximum
   (C04_reported_steps_valid, whose [valid] includes |station power| <= max + EPS).
   NOT proved: that every strategy routes every command through clamp_power, 'only a station
   with a connected vehicle carries power', 'no discharge without V2G' and the vehicle-curve
   bound — Python predicates on every step of recorded exact runs of all eight strategies. *)
From Coq Require Import Reals.
From SV Require Import Num RNum Kernel KernelProps.
Open Scope R_scope.

Theorem C05_clamp_nonneg : forall p cur mx mn vm, 0 <= @clamp_power R RNum p cur mx mn vm.
Proof. exact clamp_nonneg. Qed.
Print Assumptions C05_clamp_nonneg.
Theorem C05_clamp_le_headroom : forall p cur mx mn vm, @clamp_power R RNum p cur mx mn vm <= Rmax (mx - cur) 0.
Proof. exact clamp_le_headroom. Qed.
Print Assumptions C05_clamp_le_headroom.
Theorem C05_clamp_le_power : forall p cur mx mn vm, 0 <= p -> @clamp_power R RNum p cur mx mn vm <= p.
Proof. exact clamp_le_power. Qed.
Print Assumptions C05_clamp_le_power.
Theorem C05_clamp_positive_respects_min : forall p cur mx mn vm, 0 < @clamp_power R RNum p cur mx mn vm ->
  mn <= cur + @clamp_power R RNum p cur mx mn vm /\ vm <= cur + @clamp_power R RNum p cur mx mn vm /\
  cur + @clamp_power R RNum p cur mx mn vm <= mx.
Proof. exact clamp_positive_respects_min. Qed.
Print Assumptions C05_clamp_positive_respects_min.
Theorem C05_clamp_mono : forall p1 p2 cur mx mn vm, p1 <= p2 ->
  @clamp_power R RNum p1 cur mx mn vm <= @clamp_power R RNum p2 cur mx mn vm.
Proof. exact clamp_mono. Qed.
Print Assumptions C05_clamp_mono.
Theorem C05_station_within_max : forall p cur mx mn vm, cur <= mx -> cur + @clamp_power R RNum p cur mx mn vm <= mx.
Proof. exact clamp_within_max. Qed.
Print Assumptions C05_station_within_max.

(* the clamp_power model used above IS the translated source of util.clamp_power (generated/Src.v is regenerated
   from /repo on every run; a change of the function's text breaks this obligation) *)
From SV Require Import Tie.
From SVG Require Import Src.
Theorem C05_clamp_power_is_source : forall power cs_cur cs_max cs_min veh_min : R,
  @clamp_power_src R RNum power cs_cur cs_max cs_min veh_min = @clamp_power R RNum power cs_cur cs_max cs_min veh_min.
Proof. apply clamp_power_is_source. Qed.
Print Assumptions C05_clamp_power_is_source.

(* ---- the executable (Q) instance that is run against /repo and the proof (R) instance agree (Transfer*.v) ---- *)
From Coq Require Import Qreals.
From SV Require Import TransferK ExecProps.
Theorem C05_exec_model_is_proof_model : forall tbl p cur mx mn vm,
  Q2R (@clamp_power Q (QNum tbl) p cur mx mn vm) = @clamp_power R RNum (Q2R p) (Q2R cur) (Q2R mx) (Q2R mn) (Q2R vm).
Proof. exact clamp_power_transfer. Qed.
Print Assumptions C05_exec_model_is_proof_model.
Theorem C05_exec_clamp_nonneg : forall tbl p cur mx mn vm, (0 <= @clamp_power Q (QNum tbl) p cur mx mn vm)%Q.
Proof. exact clamp_exec_nonneg. Qed.
Print Assumptions C05_exec_clamp_nonneg.
Theorem C05_exec_station_within_max : forall tbl p cur mx mn vm, (cur <= mx)%Q -> (cur + @clamp_power Q (QNum tbl) p cur mx mn vm <= mx)%Q.
Proof. exact clamp_exec_within_max. Qed.
Print Assumptions C05_exec_station_within_max.
Theorem C05_exec_clamp_le_power : forall tbl p cur mx mn vm, (0 <= p)%Q -> (@clamp_power Q (QNum tbl) p cur mx mn vm <= p)%Q.
Proof. exact clamp_exec_le_power. Qed.
Print Assumptions C05_exec_clamp_le_power.
Theorem C05_exec_positive_respects_min : forall tbl p cur mx mn vm, (0 < @clamp_power Q (QNum tbl) p cur mx mn vm)%Q ->
  (mn <= cur + @clamp_power Q (QNum tbl) p cur mx mn vm)%Q /\ (vm <= cur + @clamp_power Q (QNum tbl) p cur mx mn vm)%Q.
Proof. exact clamp_exec_positive_respects_min. Qed.
Print Assumptions C05_exec_positive_respects_min.
