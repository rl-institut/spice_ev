(* Property C12 — electricity costs follow the tariff rules of the price sheet.
   Model: theories/Costs.v (calculate_costs and its helpers for all seven schemes); tie: exact
   correspondence of the returned dictionary and the written "costs" section (./check C12).
   PARTIAL.  Proved (R instance, all series, sheets, schemes): tariff class and utilisation
   bracket selection; the composition net = commodity + capacity + procurement + additional +
   levies + concession + electricity tax, gross = net*(1+VAT) - feed-in; every energy-proportional
   term = rate*energy/100; annual value = period value / year fraction for all of them, capacity
   and basic charge taken as they are, additional costs = sheet value (RLM); repetition of a
   profile scales energy, keeps the peak and keeps energy-per-year / utilisation (hence class and
   bracket) unchanged.  ([i_vat] is value_added_tax/100 and [i_add_sim] additional_costs*fraction_year, which the
   code computes in plain floats from price-sheet numbers; they enter as inputs.)  The function has no date argument: costs cannot depend on absolute dates.
   NOT proved: the scheme-specific peak selection (windows, highest tariff, outside flex
   windows, schedule deviation) as separate statements, and repeat/halving invariance of the
   FINAL annual totals through all seven schemes — these are compared against the implementation
   (exact correspondence) and evaluated relationally on every generated case. *)
From Coq Require Import Reals List Lia Lra.
From SV Require Import Num RNum Costs CostsProps.
Import ListNotations.
Open Scope R_scope.

Theorem C12_tariff_class : forall (sh:@sheet R) ft util e,
  let f := snd (@find_prices R RNum sh ft util e) in
  (ft = Some RLM -> f = RLM) /\ (ft <> Some RLM -> (f = SLP <-> Rabs e <= 100000)).
Proof.
  intros sh ft util e. rewrite find_prices_R. split.
  - intros ->. destruct (Rltb util 2500); reflexivity.
  - intros Hft. replace (match ft with Some RLM => false | _ => Rleb (Rabs e) 100000 end) with (Rleb (Rabs e) 100000)
      by (destruct ft as [[|]|]; congruence).
    destruct (Rleb (Rabs e) 100000) eqn:E; [apply Rleb_t in E; tauto|apply Rleb_f in E].
    destruct (Rltb util 2500); cbn; (split; [discriminate|lra]).
Qed.
Print Assumptions C12_tariff_class.

Theorem C12_utilisation_bracket : forall (sh:@sheet R) ft util e, snd (@find_prices R RNum sh ft util e) = RLM ->
  (util < 2500 -> @find_prices R RNum sh ft util e = (lo_commodity sh, lo_capacity sh, RLM)) /\
  (2500 <= util -> @find_prices R RNum sh ft util e = (hi_commodity sh, hi_capacity sh, RLM)).
Proof.
  intros sh ft util e. rewrite find_prices_R. destruct (match ft with Some RLM => false | _ => _ end); [discriminate|].
  intros _. split; intros H; [rewrite Rltb_true|rewrite Rltb_false]; lra || reflexivity.
Qed.
Print Assumptions C12_utilisation_bracket.

Theorem C12_slp_prices : forall (sh:@sheet R) ft util e, snd (@find_prices R RNum sh ft util e) = SLP ->
  @find_prices R RNum sh ft util e = (slp_commodity sh, slp_basic sh, SLP).
Proof.
  intros sh ft util e. rewrite find_prices_R. destruct (match ft with Some RLM => false | _ => _ end); [reflexivity|].
  destruct (Rltb util 2500); discriminate.
Qed.
Print Assumptions C12_slp_prices.

(* every successful cost calculation ends in [finalize] applied to the period's grid energy *)
Theorem C12_structure : forall (sh:@sheet R) inp o, @calculate_costs R RNum sh inp = Ok o ->
  exists e mx pk cpy csim cap f pv, @finalize R RNum sh inp e mx pk cpy csim cap f pv = Ok o /\
    Rdivr (@nsum R RNum (pos_supply (i_supply inp)) * i_secs inp) c3600 = Ok e /\
    (is_variable (i_cc inp) = false -> pv = None).
Proof.
  intros sh inp o H. unfold calculate_costs in H.
  apply bind_ok in H as (e & He & H). apply bind_ok in H as (epa & _ & H).
  apply bind_ok in H as (util & _ & H). destruct (find_prices _ _ _ _) as [[com0 cap0] fee1].
  apply bind_ok in H as ([[cpy0 csim0] pv] & Hc & H). apply bind_ok in H as (mx2 & _ & H).
  apply bind_ok in H as ([[[cpy csim] cap] fee2] & _ & H).
  eexists _, _, _, _, _, _, _, pv. split; [exact H|]. split; [exact He|].
  (* only variable pricing computes its own procurement costs *)
  intros Hv. rewrite Hv in Hc. destruct (is_fixed (i_cc inp)).
  - apply bind_ok in Hc as ([py sim] & _ & Hc). injection Hc as _ _ <-. reflexivity.
  - injection Hc as _ _ <-. reflexivity.
Qed.
Print Assumptions C12_structure.

Theorem C12_composition_and_annualisation : forall (sh:@sheet R) inp e mx pk cpy csim cap f pv o,
  @finalize R RNum sh inp e mx pk cpy csim cap f pv = Ok o ->
  o_commodity_sim o = csim /\ o_commodity_py o = cpy /\ o_capacity o = cap /\ o_fee o = f /\ o_energy_sim o = e /\
  o_net_sim o = o_commodity_sim o + o_capacity o + o_procurement_sim o + o_additional_sim o
                + sumR (o_levies_sim o) + o_concession_sim o + o_etax_sim o /\
  o_net_py o = (o_net_sim o - o_capacity o) / i_fy inp + o_capacity o /\
  o_vat_sim o = i_vat inp * o_net_sim o /\ o_vat_py o = i_vat inp * o_net_py o /\
  o_total_sim o = o_net_sim o + o_vat_sim o - sumR (o_feedin_sim o) /\
  o_total_py o = o_net_py o + o_vat_py o - sumR (o_feedin_py o) /\
  i_fy inp <> 0 /\
  o_levies_sim o = [eeg sh * e / 100; chp sh * e / 100; indiv sh * e / 100; offshore sh * e / 100; interruptible sh * e / 100] /\
  o_levies_py o = map (fun x => x / i_fy inp) (o_levies_sim o) /\
  o_concession_sim o = concession sh * e / 100 /\ o_concession_py o = o_concession_sim o / i_fy inp /\
  o_etax_sim o = etax sh * e / 100 /\ o_etax_py o = o_etax_sim o / i_fy inp /\
  o_procurement_py o = o_procurement_sim o / i_fy inp /\
  (pv = None -> o_procurement_sim o = procurement sh * e / 100) /\
  o_additional_py o = (match f with RLM => additional sh | SLP => 0 end) /\
  o_additional_sim o = (match f with RLM => i_add_sim inp | SLP => 0 end).
Proof.
  intros sh inp e mx pk cpy csim cap f pv o H. unfold finalize in H. rewrite !zero_0 in H. cbn [ndiv RNum] in H. rewrite Rdivr_100 in H.
  (* the procurement costs of the period: given (variable pricing) or rate * energy / 100 *)
  replace (match pv with Some p => Ok p | None => Ok (nmul (procurement sh) e / 100) end)
    with (@Ok R (match pv with Some p => p | None => procurement sh * e / 100 end)) in H by (destruct pv; reflexivity).
  cbn [bind] in H.
  assert (Hfy : i_fy inp <> 0).
  { destruct (bind_ok _ _ _ H) as (x & Hx & _). apply (Rdivr_inv _ _ _ Hx). }
  (* on R every division succeeds except the one by the year fraction, so the [let!] chain can be evaluated from the
     head; only the PV bracket can still fail *)
  repeat (first [rewrite Rdivr_100 in H | rewrite (Rdivr_ok _ _ Hfy) in H]; cbn [bind] in H).
  destruct (if neqb _ _ then _ else _) as [pvc|]; cbn [bind] in H; [|discriminate H].
  repeat (first [rewrite (feed_in_R _ _ _ _ Hfy) in H | rewrite Rdivr_100 in H | rewrite (Rdivr_ok _ _ Hfy) in H];
          cbn [bind] in H).
  injection H as <-. cbn -[Rdiv Rmult Rplus Rminus].
  repeat split; try lra. intros ->. reflexivity.
Qed.
Print Assumptions C12_composition_and_annualisation.

Theorem C12_repeat_energy_peak : forall k (l:list R) secs fy, (0 < k)%nat -> fy <> 0 ->
  let e := @nsum R RNum l * secs / 3600 in
  let e' := @nsum R RNum (rep k l) * secs / 3600 in
  e' = INR k * e /\ e' / (INR k * fy) = e / fy /\ @maxl0 R RNum (rep k l) = @maxl0 R RNum l.
Proof.
  intros k l secs fy Hk Hfy e e'. unfold e, e'. rewrite nsum_rep, !maxl0_R, maxR0_rep by exact Hk.
  assert (INR k <> 0) by (apply not_0_INR; lia).
  split; [lra|]. split; [field; auto|reflexivity].
Qed.
Print Assumptions C12_repeat_energy_peak.

(* ---- the executable (Q) instance that is run against /repo and the proof (R) instance agree (Transfer*.v) ---- *)
From Coq Require Import Qreals.
From SV Require Import Transfer TransferAll.
Theorem C12_exec_costs_is_proof_model : forall tbl sh sh' inp inp',
  SV_o_Costs_o_sheet_R Q R QR sh sh' -> SV_o_Costs_o_inputs_R Q R QR inp inp' ->
  res_R _ _ (SV_o_Costs_o_outputs_R Q R QR) (@calculate_costs Q (QNum tbl) sh inp) (@calculate_costs R RNum sh' inp').
Proof. exact calculate_costs_transfer. Qed.
Print Assumptions C12_exec_costs_is_proof_model.
Theorem C12_exec_every_input_has_a_real_counterpart : forall (sh:@sheet Q) (inp:@inputs Q),
  { sh' : @sheet R & SV_o_Costs_o_sheet_R Q R QR sh sh' } * { inp' : @inputs R & SV_o_Costs_o_inputs_R Q R QR inp inp' }.
Proof. intros sh inp. exact (sheet_total sh, inputs_total inp). Qed.
Print Assumptions C12_exec_every_input_has_a_real_counterpart.
From SV Require Import ExecProps.
(* the executable find_prices itself classifies by the 100 000 kWh/a boundary *)
Theorem C12_exec_tariff_class : forall tbl (sh:@sheet Q) ft util e,
  let f := snd (@find_prices Q (QNum tbl) sh ft util e) in
  (ft = Some RLM -> f = RLM) /\ (ft <> Some RLM -> (f = SLP <-> (-(100000) <= e)%Q /\ (e <= 100000)%Q)).
Proof.
  intros tbl sh ft util e. destruct (sheet_total sh) as [sh' Hsh].
  assert (Hft : option_R _ _ SV_o_Costs_o_fee_R ft ft) by (destruct ft as [[|]|]; repeat constructor).
  pose proof (SV_o_Costs_o_find_prices_R Q R QR _ _ (QNum_RNumT tbl) sh sh' Hsh ft ft Hft util _ eq_refl e _ eq_refl) as T.
  change (@find_prices R (RNumT tbl)) with (@find_prices R RNum) in T.
  pose proof (C12_tariff_class sh' ft (Q2R util) (Q2R e)) as P. cbv zeta in P |- *.
  destruct (@find_prices Q (QNum tbl) sh ft util e) as [[a b] f], (@find_prices R RNum sh' ft (Q2R util) (Q2R e)) as [[a' b'] f'].
  inversion T as [? ? _ ? ? Hf]; subst. assert (f = f') by (destruct Hf; reflexivity). subst f'. cbn [snd] in *.
  destruct P as [P1 P2]. split; [exact P1|]. intros Hne. rewrite (P2 Hne), !Qle_R, Q2R_opp, Q2R_Z.
  unfold Rabs. destruct Rcase_abs; lra.
Qed.
Print Assumptions C12_exec_tariff_class.
