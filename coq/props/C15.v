(* Property C15 — time-window and core-standing-time membership.
   Model: theories/Windows.v; lemmas about the window tests and the series loop: theories/WindowsProps.v; axiom-free. *)
From Coq Require Import ZArith List Bool Lia.
From SV Require Import Windows WindowsProps.
Import ListNotations.
Open Scope Z_scope.

(* inside a peak-load window iff the FIRST listed season containing the date (bounds
   inclusive) has a window of the level with start <= t < end, wrapping over midnight *)
Theorem C15_window_iff : forall day t seasons lvl,
  within_window day t seasons lvl = true <->
  exists s w, first_season day seasons s /\ In w (wins_of lvl (s_wins s)) /\
    ((snd w < fst w /\ (fst w <= t \/ t < snd w)) \/ (fst w <= snd w /\ fst w <= t < snd w)).
Proof.
  intros day t seasons lvl. induction seasons as [|s r IH].
  - split; [discriminate|]. intros (s & w & H & _). inversion H.
  - rewrite within_window_cons. destruct (_ && _) eqn:E.
    + apply covers_iff in E. rewrite existsb_exists. split.
      * intros (w & Hw & Hi). exists s, w. split; [constructor; exact E|]. split; [exact Hw|apply in_win_iff, Hi].
      * intros (s' & w & Hf & Hw & Hi). inversion Hf; [|contradiction]. exists w. split; [exact Hw|apply in_win_iff, Hi].
    + assert (~ covers s day) by (rewrite <- covers_iff, E; discriminate). rewrite IH. split.
      * intros (s' & w & Hf & H'). exists s', w. split; [apply fs_later; assumption|exact H'].
      * intros (s' & w & Hf & H'). inversion Hf; subst; [contradiction|]. exists s', w. auto.
Qed.
Print Assumptions C15_window_iff.

Theorem C15_no_season : forall day t seasons lvl,
  (forall s, In s seasons -> ~ (s_first s <= day <= s_last s)) -> within_window day t seasons lvl = false.
Proof.
  intros day t seasons lvl. induction seasons as [|s r IH]; intros H; [reflexivity|]. rewrite within_window_cons.
  destruct (_ && _) eqn:E; [apply covers_iff in E; exfalso; exact (H s (or_introl eq_refl) E)|].
  apply IH. intros s' Hs'. apply H. right; exact Hs'.
Qed.
Print Assumptions C15_no_season.

(* core standing time, with the semantics the code has: end instant of a non-wrapping
   window INCLUDED *)
Theorem C15_core_iff : forall ts c, within_core ts c = true <->
  match c with None => True
  | Some c => In (weekday ts) (c_nodrive c) \/ In (ordinal ts) (c_holidays c)
              \/ exists w, In w (c_times c) /\
                   ((snd w < fst w /\ (fst w <= tod ts \/ tod ts < snd w)) \/ (fst w <= snd w /\ fst w <= tod ts <= snd w)) end.
Proof.
  intros ts [c|]; cbn; [|tauto]. rewrite !orb_true_iff, !existsb_eqb, existsb_exists.
  setoid_rewrite in_core_win_iff. tauto.
Qed.
Print Assumptions C15_core_iff.

(* The property text asks for "before the configured end".  That reading is refuted by
   the faithful model at exactly one instant class (t = end of a non-wrapping window;
   pinned by tests/test_util.py, recorded as known finding D9) and holds everywhere else. *)
Theorem C15_core_halfopen_refuted : exists t w, in_core_win t w = true /\ ~ half_open_core t w.
Proof. exists 13, (10,13). split; [reflexivity|]. unfold half_open_core; cbn. lia. Qed.
Print Assumptions C15_core_halfopen_refuted.
Theorem C15_core_halfopen_partial : forall t w, t <> snd w \/ snd w < fst w ->
  (in_core_win t w = true <-> half_open_core t w).
Proof. intros t w H. rewrite in_core_win_iff. unfold in_core_win_spec, half_open_core. lia. Qed.
Print Assumptions C15_core_halfopen_partial.

(* the per-timestep series is the predicate at each step time; ceil((stop-start)/interval) entries;
   the while loop never runs out of fuel *)
Theorem C15_series : forall start stop delta seasons lvl, 0 < delta ->
  exists l, window_series start stop delta seasons lvl = Some l /\
    Z.of_nat (length l) = Z.max 0 ((stop - start + delta - 1) / delta) /\
    forall k, (k < length l)%nat -> nth_error l k = Some (dt_within_window (start + Z.of_nat k * delta) seasons lvl).
Proof.
  intros start stop delta seasons lvl Hd. apply series_loop_spec; [exact Hd|lia].
Qed.
Print Assumptions C15_series.

Example C15_nonvacuous :
  let s := {| s_first := 738000; s_last := 738100; s_wins := [(2%nat, [(61200000000, 70200000000)])] |} in
  within_window 738050 61200000000 [s] 2 = true /\ within_window 738050 70200000000 [s] 2 = false /\
  within_core (738156 * DAY + 13 * 3600000000) (Some {| c_nodrive := []; c_holidays := []; c_times := [(36000000000, 46800000000)] |}) = true.
Proof. vm_compute. auto. Qed.
