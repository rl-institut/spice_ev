(* Property C06 — reported powers and SoCs balance.
   PARTIAL.  Proved: the reported connector power is max(-rating, sum of ALL entries of the load
   dictionary) — i.e. the sum of the reported component powers with feed-in curtailed at the
   rating, and exactly that sum whenever it is >= -rating; self-discharge only lowers the SoC
   and never below zero; per (dis)charge call the stored energy changes by power x time x
   efficiency (C01_load / C01_unload).  The run-loop and loss models are tied to /repo by
   exact correspondence.
   NOT proved: that each strategy persists exactly the powers it reports (look-ahead on real
   objects restored afterwards) — checked per step on recorded exact runs of all strategies by
   the Python predicate (classes C06/vehicle-energy, C06/battery-energy, ...). *)
From Coq Require Import Reals List Lra.
From SV Require Import Num RNum RunLoop RunLoopProps Kernel KernelProps.
Open Scope R_scope.

Theorem C06_gc_sum : forall (g:@gcobs R),
  @gc_load R RNum g = Rmax (- g_max g) (Rsum (map l_val (g_loads g))).
Proof.
  intros g. unfold gc_load, load_excl, local_generation. rewrite nmax_R, !nneg_R, !nsum_R. cbn [nsub RNum].
  f_equal. pose proof (Rsum_split l_gen (g_loads g)) as H. unfold Rsum in *. lra.
Qed.
Print Assumptions C06_gc_sum.
Theorem C06_gc_sum_plain : forall (g:@gcobs R), - g_max g <= Rsum (map l_val (g_loads g)) ->
  @gc_load R RNum g = Rsum (map l_val (g_loads g)).
Proof. intros g H. rewrite C06_gc_sum. apply Rmax_right, H. Qed.
Print Assumptions C06_gc_sum_plain.
Theorem C06_losses : forall soc cap rel fr fa s', 0 < cap -> 0 <= soc -> 0 <= rel <= 100 -> 0 <= fr -> 0 <= fa ->
  @apply_losses R RNum soc cap rel fr fa = Ok s' -> 0 <= s' <= soc.
Proof. intros soc cap rel fr fa s' Hc Hs [Hr _]. exact (losses_bounds soc cap rel fr fa s' Hc Hs Hr). Qed.
Print Assumptions C06_losses.
Theorem C06_losses_formula : forall soc cap rel fr fa, cap <> 0 ->
  @apply_losses R RNum soc cap rel fr fa = Ok (Rmax (soc * (1 - rel / 100) - fr / 100 - fa / cap) 0).
Proof. exact losses_spec. Qed.
Print Assumptions C06_losses_formula.

(* booking a station's power at its connector (GridConnector.add_load, used by every strategy) raises the connector total
   by exactly the booked power, whether or not the station already had an entry; the returned command is the station's
   new total *)
From SV Require Import Strat StratSum.
Theorem C06_add_load_total : forall (g:@gcon R) k v,
  @current_load R RNum (fst (@add_load R RNum g k v)) = @current_load R RNum g + v /\
  snd (@add_load R RNum g k v) = match Strat.lookup k (gc_loads g) with Some old => old + v | None => v end.
Proof.
  intros g k v. rewrite !current_load_sum. unfold add_load. cbn [fst snd gc_loads]. rewrite sum_assign.
  destruct (Strat.lookup k (gc_loads g)); cbn [nadd RNum]; split; reflexivity || lra.
Qed.
Print Assumptions C06_add_load_total.

(* ---- the executable (Q) instance that is run against /repo and the proof (R) instance agree (Transfer*.v) ---- *)
From Coq Require Import Qreals.
From SV Require Import Transfer TransferK TransferAll.
Theorem C06_exec_losses_is_proof_model : forall tbl soc cap rel fr fa,
  @apply_losses R RNum (Q2R soc) (Q2R cap) (Q2R rel) (Q2R fr) (Q2R fa) = mapres Q2R (@apply_losses Q (QNum tbl) soc cap rel fr fa).
Proof. exact apply_losses_transfer. Qed.
Print Assumptions C06_exec_losses_is_proof_model.
Theorem C06_exec_run_is_proof_model : forall tbl eps steps steps', list_R _ _ (SV_o_RunLoop_o_stepobs_R Q R QR) steps steps' ->
  prod_R _ _ (list_R _ _ (SV_o_RunLoop_o_row_R Q R QR)) _ _ bool_R (@RunLoop.run Q (QNum tbl) eps steps) (@RunLoop.run R RNum (Q2R eps) steps').
Proof. exact run_transfer. Qed.
Print Assumptions C06_exec_run_is_proof_model.
From SV Require Import ExecProps.
Theorem C06_exec_losses_bounds : forall tbl soc cap rel fr fa s',
  (0 < cap)%Q -> (0 <= soc)%Q -> (0 <= rel)%Q -> (rel <= 100)%Q -> (0 <= fr)%Q -> (0 <= fa)%Q ->
  @apply_losses Q (QNum tbl) soc cap rel fr fa = Ok s' -> (0 <= s')%Q /\ (s' <= soc)%Q.
Proof.
  intros tbl soc cap rel fr fa s' Hc. apply Qlt_Rlt in Hc. revert Hc. rewrite !Qle_R, !Q2R_Z. intros Hc Hs Hr0 Hr1 Hf Ha H.
  pose proof (apply_losses_transfer tbl soc cap rel fr fa) as T. rewrite H in T.
  exact (losses_bounds _ _ _ _ _ _ Hc Hs Hr0 Hf Ha T).
Qed.
Print Assumptions C06_exec_losses_bounds.
