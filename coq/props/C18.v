(* Property C18 — reports are faithful to the simulation.
   PARTIAL.  Proved: report.split_feedin yields non-negative parts in the priority generation >
   V2G > battery whose sum is the total feed-in (for generation, station sum <= 0, as the caller
   passes them).  Model tied by exact correspondence (3-decimal half-even rounding reproduced).
   NOT proved: the row construction of aggregate_timeseries and the aggregates of
   aggregate_local_results — checked on the written CSV/JSON of recorded exact runs, column by
   column against the simulated quantities (one row per step, grid supply = -round3(connector
   power), per-station power and their sum, fixed load, generation, battery power and stored
   energy, occupied stations), and the cost round trip (costs from the written files with the
   same options = in-run costs) by running simulate.py's and calculate_costs.py's code paths. *)
From Coq Require Import Reals.
From SV Require Import Num RNum Report ReportProps.
Open Scope R_scope.
Theorem C18_split : forall g ge cs, ge <= 0 -> cs <= 0 ->
  let '(gen, v2g, bat) := @split_feedin R RNum g ge cs in
  0 <= gen /\ 0 <= v2g /\ 0 <= bat /\ gen + v2g + bat = Rmax g 0 /\
  gen = Rmin (- ge) (Rmax g 0) /\ v2g = Rmin (- cs) (Rmax g 0 - gen) /\ bat = Rmax g 0 - gen - v2g.
Proof. exact split_spec. Qed.
Print Assumptions C18_split.
Theorem C18_split_nonneg : forall g ge cs,
  let '(gen, v2g, bat) := @split_feedin R RNum g ge cs in 0 <= gen /\ 0 <= v2g /\ 0 <= bat.
Proof. exact split_nonneg. Qed.
Print Assumptions C18_split_nonneg.

(* the split_feedin model IS the translated source of report.split_feedin (up to the final rounding, which the
   translator drops and the correspondence applies) *)
From SV Require Import Tie.
From SVG Require Import Src.
Theorem C18_split_feedin_is_source : forall grid generation cs_sum : R,
  @split_feedin_src R RNum grid generation cs_sum = @split_feedin R RNum grid generation cs_sum.
Proof. apply split_feedin_is_source. Qed.
Print Assumptions C18_split_feedin_is_source.

(* the same facts for the executable (Q) instance that is run against /repo (ExecProps.v, through Transfer*.v) *)
From Coq Require Import Qminmax Qreals.
From SV Require Import ExecProps.
Theorem C18_exec_split_nonneg : forall tbl g ge cs,
  let '(gen, v2g, bat) := @split_feedin Q (QNum tbl) g ge cs in (0 <= gen)%Q /\ (0 <= v2g)%Q /\ (0 <= bat)%Q.
Proof. exact split_exec_nonneg. Qed.
Print Assumptions C18_exec_split_nonneg.
Theorem C18_exec_split_sum : forall tbl g ge cs, (ge <= 0)%Q -> (cs <= 0)%Q ->
  let '(gen, v2g, bat) := @split_feedin Q (QNum tbl) g ge cs in (gen + v2g + bat == Qmax g 0)%Q.
Proof. exact split_exec_sum. Qed.
Print Assumptions C18_exec_split_sum.
