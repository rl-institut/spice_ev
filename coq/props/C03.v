(* Property C03 — charging-curve lookup and clamping are exact piecewise-linear operations.
   The statements of the property, each derived from the theory in theories/CurveProps.v
   (lookup, scaling, clamping on point lists) or CurveGrid.v (the grid sweep).
   Model: theories/Curve.v (LoadingCurve.__init__, power_from_soc, clamped,
   VehicleType's default discharge curve), tied to /repo by the exact correspondence
   run by ./check C03.  R-instance theorems quantify over ALL curves/limits/factors/SoCs. *)
From Coq Require Import Reals List QArith Lra.
From SV Require Import Num RNum Curve CurveProps CurveGrid.
Import ListNotations.
Open Scope R_scope.

(* 1. The looked-up power is the linear interpolation between the neighbouring points. *)
Theorem C03_lookup : forall (c:@curve R) s i p q,
  incr (pts c) -> s <= 1 ->
  nth_error (pts c) i = Some p -> nth_error (pts c) (S i) = Some q -> fst p <= s <= fst q ->
  @power_from_soc R RNum c s = Ok (snd p + (snd q - snd p) * ((s - fst p) / (fst q - fst p))).
Proof.
  intros c s i p q Hinc Hs Hp Hq Hb. rewrite power_from_soc_R by exact Hs.
  exact (pfs_lookup _ s i p q Hinc Hp Hq Hb).
Qed.
Print Assumptions C03_lookup.

Theorem C03_lookup_at_point : forall (c:@curve R) i p,
  wf_curve c -> nth_error (pts c) i = Some p -> @power_from_soc R RNum c (fst p) = Ok (snd p).
Proof.
  intros c i p (_ & Hinc & _ & H1) Hp. rewrite power_from_soc_R; [exact (pfs_pts_at_point _ i p Hinc Hp)|].
  rewrite <- H1. exact (incr_le_lastx _ Hinc p (nth_error_In _ _ Hp)).
Qed.
Print Assumptions C03_lookup_at_point.

Theorem C03_lookup_total : forall (c:@curve R) s,
  wf_curve c -> 0 <= s <= 1 -> exists v, @power_from_soc R RNum c s = Ok v.
Proof. exact lookup_total. Qed.
Print Assumptions C03_lookup_total.

(* 2. clamped(limit, pre, post) = post * min(pre * curve(s), limit) at every SoC in [0,1],
      for every well-formed curve and ALL real limit / pre / post; the result is again an
      ordered curve from 0 to 1 (so the constructor asserts hold) and its max_power is the
      fold of max over its points. *)
Theorem C03_clamped_pointwise : forall (c:@curve R) lim pre post, wf_curve c ->
  exists c', @clamped R RNum c lim pre post = Ok c' /\ wf_weak c' /\ maxp c' = maxfold (pts c') /\
    forall s, 0 <= s <= 1 -> exists v, @power_from_soc R RNum c s = Ok v /\
                                       @power_from_soc R RNum c' s = Ok (post * Rmin (pre * v) lim).
Proof.
  intros c lim pre post Hwf. destruct (clamped_lookup c lim pre post Hwf) as (c' & Hc & Hw & Hm & Hev).
  exists c'. split; [exact Hc|]. split; [exact (wf_curve_weak c' Hw)|]. split; [exact Hm|].
  intros s Hs. destruct (lookup_total c s Hwf Hs) as [v Hv]. exists v. split; [exact Hv|exact (Hev s v Hv)].
Qed.
Print Assumptions C03_clamped_pointwise.

(* 3. max_power is the maximum over the points, and bounds the curve on [0,1]. *)
Theorem C03_max_power : forall (c:@curve R), pts c <> [] -> maxp c = maxfold (pts c) -> nonneg (pts c) ->
  Forall (fun p => snd p <= maxp c) (pts c) /\ In (maxp c) (map snd (pts c)).
Proof. intros c Hne Hm Hnn. rewrite Hm. exact (maxfold_max _ Hne Hnn). Qed.
Print Assumptions C03_max_power.

Theorem C03_constructor_fields : forall l (c:@curve R), @mk_curve R RNum l = Ok c ->
  pts c = @sortpts R RNum l /\ maxp c = maxfold (pts c).
Proof.
  intros l c. unfold mk_curve. destruct (sortpts l) as [|p0 r]; [discriminate|].
  destruct (negb _); [discriminate|]. destruct (negb _); [discriminate|].
  intros H; injection H as <-. split; reflexivity.
Qed.
Print Assumptions C03_constructor_fields.

Theorem C03_max_power_bounds_curve : forall (c:@curve R) s v,
  wf_curve c -> maxp c = maxfold (pts c) -> nonneg (pts c) -> 0 <= s <= 1 ->
  @power_from_soc R RNum c s = Ok v -> 0 <= v <= maxp c.
Proof. exact max_power_bounds_curve. Qed.
Print Assumptions C03_max_power_bounds_curve.

(* 4. Default discharge curve = V2G power factor * charging curve at every SoC
      (0 < factor <= 1; for factor > 1 the code additionally caps at max_power, see
      C03_default_discharge_general — the property text presumes a factor <= 1). *)
Theorem C03_default_discharge : forall (c:@curve R) f,
  wf_curve c -> maxp c = maxfold (pts c) -> nonneg (pts c) -> 0 < f <= 1 ->
  exists c', @default_discharge R RNum c f = Ok c' /\ wf_weak c' /\
    forall s, 0 <= s <= 1 -> exists v, @power_from_soc R RNum c s = Ok v /\ @power_from_soc R RNum c' s = Ok (f * v).
Proof.
  intros c f Hwf Hm Hnn Hf. destruct (default_discharge_lookup c f Hwf) as (c' & Hc & Hw & Hev).
  exists c'. split; [exact Hc|]. split; [exact (wf_curve_weak c' Hw)|].
  intros s Hs. destruct (lookup_total c s Hwf Hs) as [v Hv]. exists v. split; [exact Hv|].
  (* f * v <= v <= max_power, so the cap at max_power does not bite *)
  destruct (max_power_bounds_curve c s v Hwf Hm Hnn Hs Hv).
  rewrite (Hev s v Hv), Rmin_left by nra. reflexivity.
Qed.
Print Assumptions C03_default_discharge.

Theorem C03_default_discharge_general : forall (c:@curve R) f, wf_curve c ->
  exists c', @default_discharge R RNum c f = Ok c' /\
    forall s, 0 <= s <= 1 -> exists v, @power_from_soc R RNum c s = Ok v /\
                                       @power_from_soc R RNum c' s = Ok (Rmin (f * v) (maxp c)).
Proof.
  intros c f Hwf. destruct (default_discharge_lookup c f Hwf) as (c' & Hc & _ & Hev).
  exists c'. split; [exact Hc|].
  intros s Hs. destruct (lookup_total c s Hwf Hs) as [v Hv]. exists v. split; [exact Hv|exact (Hev s v Hv)].
Qed.
Print Assumptions C03_default_discharge_general.

(* 5. Exhaustive sweep on the rational grid (executable Q instance, exact arithmetic):
      all 976 curves with 2-4 points, SoC in {0,1/4,1/2,3/4,1}, power in {0,5,10,20};
      all 54 (limit, pre, post) in {0,4,5,8,10,25} x {1/2,1,2}^2; 17 probes k/16 plus the
      result's own break points. *)
Theorem C03_grid_exhaustive : forall l prm, In l grid_curves -> In prm grid_params ->
  check_lookup l = true /\ check_clamp l prm = true.
Proof.
  intros l prm Hl Hp. unfold grid_params in Hp. apply in_flat_map in Hp. destruct Hp as (lim & Hlim & Hp).
  apply in_flat_map in Hp. destruct Hp as (pre & Hpre & Hp). apply in_map_iff in Hp. destruct Hp as (post & <- & _).
  exact (grid_ok_sound l lim pre post grid_ok_true Hl Hlim Hpre).
Qed.
Print Assumptions C03_grid_exhaustive.

(* 6. The pinned upstream revision (clamped_orig, defect D1, repaired by /repo commit
      "fix: clamped() must take both section end points ...") does NOT satisfy statement 2. *)
Theorem C03_clamped_orig_refuted : violates (@clamped_orig Q N0) = true.
Proof. vm_cast_no_check (eq_refl true). Qed.
Print Assumptions C03_clamped_orig_refuted.

(* Non-vacuity: a concrete tapered curve meets every hypothesis used above. *)
Definition ex_curve : @curve R := {| pts := [(0,11); (4/5,11); (1,2)]; maxp := 11 |}.
Example C03_hypotheses_satisfiable : wf_curve ex_curve /\ nonneg (pts ex_curve) /\ maxp ex_curve = maxfold (pts ex_curve).
Proof.
  split; [|split].
  - unfold wf_curve, wf_pts, ex_curve, lastx; cbn. repeat split; try lra. auto.
  - repeat constructor; cbn; lra.
  - unfold ex_curve, maxfold; cbn [pts maxp fold_left snd]. rewrite !nmax_R, zero_0.
    unfold Rmax; repeat destruct Rle_dec; lra.
Qed.

(* ---- the executable (Q) instance that is run against /repo and the proof (R) instance agree (Transfer*.v) ---- *)
From SV Require Import Transfer TransferAll.
Theorem C03_exec_lookup_is_proof_model : forall tbl c c' s, SV_o_Curve_o_curve_R Q R QR c c' ->
  res_R Q R QR (@power_from_soc Q (QNum tbl) c s) (@power_from_soc R RNum c' (Q2R s)).
Proof. exact power_from_soc_transfer. Qed.
Print Assumptions C03_exec_lookup_is_proof_model.
Theorem C03_exec_clamped_is_proof_model : forall tbl c c' lim pre post, SV_o_Curve_o_curve_R Q R QR c c' ->
  res_R _ _ (SV_o_Curve_o_curve_R Q R QR) (@clamped Q (QNum tbl) c lim pre post) (@clamped R RNum c' (Q2R lim) (Q2R pre) (Q2R post)).
Proof. exact clamped_transfer. Qed.
Print Assumptions C03_exec_clamped_is_proof_model.
Theorem C03_exec_every_curve_has_a_real_counterpart : forall c : @curve Q, { c' : @curve R & SV_o_Curve_o_curve_R Q R QR c c' }.
Proof. exact curve_total. Qed.
Print Assumptions C03_exec_every_curve_has_a_real_counterpart.
From SV Require Import ExecProps.
(* the executable lookup itself is defined on [0,1] and stays within [0, max_power] (rational curves whose real image is well-formed) *)
Theorem C03_exec_lookup_total_bounded : forall tbl (c:@curve Q) (s:Q),
  wf_curve (curveQ2R c) -> maxp (curveQ2R c) = maxfold (pts (curveQ2R c)) -> nonneg (pts (curveQ2R c)) ->
  (0 <= s)%Q -> (s <= 1)%Q ->
  exists v, @power_from_soc Q (QNum tbl) c s = Ok v /\ (0 <= v)%Q /\ (v <= maxp c)%Q.
Proof.
  intros tbl c s Hwf Hmax Hnn. rewrite !Qle_R, !Q2R_Z. intros H0 H1.
  destruct (lookup_total (curveQ2R c) (Q2R s) Hwf (conj H0 H1)) as [vr Hvr].
  pose proof (power_from_soc_transfer tbl c (curveQ2R c) s (curveQ2R_rel c)) as T.
  rewrite Hvr in T. inversion T as [v ? Hv Hq|]; subst. unfold QR in Hv. subst vr.
  exists v. split; [reflexivity|]. rewrite !Qle_R, Q2R_Z.
  exact (max_power_bounds_curve (curveQ2R c) (Q2R s) (Q2R v) Hwf Hmax Hnn (conj H0 H1) Hvr).
Qed.
Print Assumptions C03_exec_lookup_total_bounded.
Definition ex_curve_q : @curve Q := {| pts := [(0,11); (4#5,11); (1,2)]%Q; maxp := 11%Q |}.
Example C03_exec_hypotheses_satisfiable :
  wf_curve (curveQ2R ex_curve_q) /\ nonneg (pts (curveQ2R ex_curve_q)) /\ maxp (curveQ2R ex_curve_q) = maxfold (pts (curveQ2R ex_curve_q)).
Proof.
  assert (E : curveQ2R ex_curve_q = ex_curve).
  { unfold curveQ2R, ex_curve_q, ex_curve, Q2R; cbn. repeat f_equal; lra. }
  rewrite E. exact C03_hypotheses_satisfiable.
Qed.
