(* Property C09 — service guarantee: feasible charging demands are met by departure.
   PARTIAL.  Proved:
   - the remaining-step count used by balanced (and, with the same expression, by the look-ahead strategies),
     -(dt // -interval), is the ceiling of dt/interval: k steps cover the time to departure, k-1 do not, and it is
     positive exactly when the departure lies ahead (the "rounding the wrong way" failure is excluded for the model);
   - greedy's request power_needed = delta_soc*capacity/efficiency*ts_per_hour aims exactly at the desired SoC, and any
     request limited by connector, station or curve aims below it; balanced's k equal steps deliver exactly the need;
   - the induction lifting a per-step dichotomy "within tolerance of the desired SoC, or at least what a full-power
     step gives" (full-power step monotone in the SoC, no step loses charge) to: after n steps the SoC is at least
     min(desired - tol, n full-power steps) — the shape of the greedy guarantee.
   NOT proved: that the modelled greedy step satisfies the dichotomy for every charging curve (needs the multi-section
   ODE composition left open under C02), and anything about balanced_market, peak_load_window, flex_window and
   distributed, which are not modelled.  The guarantee itself is evaluated by ./check C09 on generated feasible
   scenarios for all six strategies against an independent feasibility oracle (sampled).
   Known findings: minimum-charging-power sliver; constant-power planning on a tapering curve (balanced family). *)
From Coq Require Import Reals Lia Lra.
From SV Require Import Service.

Theorem C09_remaining_steps_ceiling : forall dt i : Z, (0 < i)%Z ->
  ((steps_left dt i - 1) * i < dt <= steps_left dt i * i)%Z /\ ((0 < steps_left dt i)%Z <-> (0 < dt)%Z) /\
  (forall k, (dt <= k * i)%Z -> (steps_left dt i <= k)%Z).
Proof.
  intros dt i Hi. pose proof (steps_left_ceil dt i Hi) as H. split; [exact H|]. split; [nia|]. intros k Hk. nia.
Qed.
Print Assumptions C09_remaining_steps_ceiling.

Open Scope R_scope.
Theorem C09_greedy_request : forall soc desired cap eff tsph hours, 0 < cap -> 0 < eff -> 0 < hours -> tsph * hours = 1 ->
  soc + ((desired - soc) * cap / eff * tsph) * eff * hours / cap = desired /\
  forall p, p <= (desired - soc) * cap / eff * tsph -> soc + p * eff * hours / cap <= desired.
Proof.
  intros soc desired cap eff tsph hours Hc He Hh Ht. split.
  - exact (greedy_request_hits_desired soc desired cap eff tsph hours Hc He Ht).
  - (* a smaller request (connector, station or curve limit) aims below the desired SoC *)
    intros p Hp. rewrite <- (greedy_request_hits_desired soc desired cap eff tsph hours Hc He Ht).
    apply Rplus_le_compat_l. apply Rmult_le_compat_r; [left; apply Rinv_0_lt_compat; exact Hc|].
    apply Rmult_le_compat_r; [lra|]. apply Rmult_le_compat_r; [lra|]. exact Hp.
Qed.
Print Assumptions C09_greedy_request.

Theorem C09_balanced_plan : forall soc desired cap eff tsph hours (k:Z), 0 < cap -> 0 < eff -> tsph * hours = 1 -> (0 < k)%Z ->
  soc + IZR k * (((desired - soc) * cap / eff * tsph / IZR k) * eff * hours / cap) = desired.
Proof.
  intros soc desired cap eff tsph hours k Hc He Ht Hk. assert (IZR k <> 0) by (apply not_0_IZR; lia).
  rewrite <- (greedy_request_hits_desired soc desired cap eff tsph hours Hc He Ht) at 2. field. lra.
Qed.
Print Assumptions C09_balanced_plan.

Theorem C09_guarantee_by_induction : forall (F step : R -> R) desired tol,
  (forall a b, a <= b -> F a <= F b) -> (forall s, s <= step s) ->
  (forall s, desired - tol <= step s \/ F s <= step s) ->
  forall n s, Rmin (desired - tol) (iter F n s) <= iter step n s.
Proof.
  intros F step desired tol F_mono step_noloss step_dichotomy.
  assert (noloss : forall n s, s <= iter step n s).
  { induction n as [|n IH]; intros s; cbn; [lra|]. eapply Rle_trans; [apply step_noloss|apply IH]. }
  assert (mono : forall n a b, a <= b -> iter F n a <= iter F n b).
  { induction n as [|n IH]; intros a b Hab; [exact Hab|]. apply IH, F_mono, Hab. }
  induction n as [|n IH]; intros s; cbn [iter]; [apply Rmin_r|].
  destruct (step_dichotomy s) as [Hd|Hf].
  - (* within tolerance already, and no later step loses charge *)
    eapply Rle_trans; [apply Rmin_l|]. eapply Rle_trans; [exact Hd|apply noloss].
  - (* at least a full-power step: the remaining full-power steps are monotone in the SoC *)
    eapply Rle_trans; [|apply IH]. apply Rle_min_compat_l, mono, Hf.
Qed.
Print Assumptions C09_guarantee_by_induction.

(* non-vacuity: a constant-power battery step meets the hypotheses *)
Example C09_hyp : let F := fun s => Rmin 1 (s + 0.1) in let step := fun s => Rmin 0.8 (Rmax s (Rmin 1 (s + 0.1))) in
  (forall a b, a <= b -> F a <= F b) /\ (forall s, s <= 0.8 -> s <= step s).
Proof.
  split; intros.
  - apply Rle_min_compat_l. lra.
  - apply Rmin_glb; [lra|apply Rmax_l].
Qed.
