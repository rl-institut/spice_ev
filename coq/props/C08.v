(* Property C08 — vehicle trip state machine and negative-SoC policy.
   Model: theories/Events.v (vehicle part of Strategy.step), R instance; dictionary facts: theories/Dict.v;
   tie: exact correspondence on random event interleavings (./check C08) plus the
   independent declarative reference.
   'The SoC of a disconnected vehicle does not change during the simulation' has two halves:
   event processing (proved here: only this vehicle's own events touch it) and the strategies'
   allocation (no strategy touches the battery of a vehicle without a station) — the latter is
   checked per step on recorded exact runs of all strategies (C06 class
   C06/disconnected-soc-changed), not proved. *)
From Coq Require Import Reals List Bool Lra.
From SV Require Import Num RNum Events Dict EventsProps.
Open Scope R_scope.

Theorem C08_arrival : forall o (w:@world R) ev vid u v0 d, e_kind ev = EVeh vid VArrival u ->
  lookup vid (w_veh w) = Some v0 -> v_delta (apply_update v0 u) = Some d ->
  let s := v_soc v0 + d in
  exists w' res v', @apply_event R RNum o w ev = (w', res) /\ lookup vid (w_veh w') = Some v' /\ arrival_result o v0 u d v' /\
    w_desired_cnt w' = w_desired_cnt w /\ w_margin_cnt w' = w_margin_cnt w /\ w_gcs w' = w_gcs w /\
    (0 <= s + o_eps o -> res = None /\ v_soc v' = s /\ v_delta v' = None /\ w_tracker w' = w_tracker w) /\
    (s + o_eps o < 0 -> w_tracker w' = track vid (w_time w) (w_tracker w) /\
        (o_allow_neg o = false -> res = Some RuntimeErr /\ v_soc v' = s) /\
        (o_allow_neg o = true -> res = None /\ v_delta v' = None /\ v_soc v' = if o_reset_neg o then 0 else s)).
Proof.
  intros o w ev vid u v0 d Hk Hl Hd s. unfold apply_event. rewrite Hk, Hl. rewrite Hd.
  cbn [nltb nadd RNum with_soc v_soc]. rewrite zero_0.
  change (v_soc (apply_update v0 u)) with (v_soc v0). fold s.
  destruct (Rltb (s + o_eps o) 0) eqn:E; [apply Rltb_t in E|apply Rltb_f in E]; [destruct (o_allow_neg o), (o_reset_neg o)|].
  (* in each of the five cases the model returns an explicit world: every claim is read off it, or its premise
     contradicts the case *)
  all: eexists _, _, _; split; [reflexivity|]; split; [apply lookup_assign_same|]; split; [constructor; reflexivity|].
  all: repeat split; intros; try lra; try discriminate.
Qed.
Print Assumptions C08_arrival.

Theorem C08_departure : forall o (w:@world R) ev vid u v0, e_kind ev = EVeh vid VDeparture u ->
  lookup vid (w_veh w) = Some v0 ->
  let v1 := apply_update v0 u in
  let past := (e_start ev <? w_time w - o_interval o)%Z in
  let soc := if past then v_desired v1 else v_soc v0 in
  let connected := match v_cs v0 with Some _ => true | None => false end in
  exists w' v', @apply_event R RNum o w ev = (w', None) /\ lookup vid (w_veh w') = Some v' /\
    v_cs v' = None /\ v_etd v' = None /\ v_soc v' = soc /\ w_tracker w' = w_tracker w /\ w_gcs w' = w_gcs w /\
    w_desired_cnt w' = (if connected && Rltb soc (v_desired v1 - o_eps o) then S (w_desired_cnt w) else w_desired_cnt w) /\
    w_margin_cnt w' = (if connected && Rleb 0 soc && Rltb soc ((1 - o_margin o) * v_desired v1 - o_eps o)
                       then S (w_margin_cnt w) else w_margin_cnt w).
Proof.
  intros o w ev vid u v0 Hk Hl v1 past soc connected. unfold apply_event. rewrite Hk, Hl. fold v1. fold past.
  eexists _, _. split; [reflexivity|]. split; [apply lookup_assign_same|].
  cbn [v_cs v_etd v_soc w_tracker w_gcs w_desired_cnt w_margin_cnt].
  unfold soc, connected. destruct past; cbn [with_soc v_soc v_desired nltb nleb nsub nmul RNum]; rewrite ?zero_0, ?one_1;
    repeat split; reflexivity.
Qed.
Print Assumptions C08_departure.

Theorem C08_unknown_vehicle_skipped : forall o (w:@world R) ev vid et u,
  e_kind ev = EVeh vid et u -> lookup vid (w_veh w) = None -> @apply_event R RNum o w ev = (w, None).
Proof. intros o w ev vid et u Hk Hl. unfold apply_event. rewrite Hk, Hl. reflexivity. Qed.
Print Assumptions C08_unknown_vehicle_skipped.

Theorem C08_other_events_keep_vehicle : forall o (w:@world R) ev vid,
  (forall et u, e_kind ev <> EVeh vid et u) -> lookup vid (w_veh (fst (@apply_event R RNum o w ev))) = lookup vid (w_veh w).
Proof.
  intros o w ev vid Hne. destruct (apply_event_effect o w ev) as [| |vid' et u v dc mc tr K]; [reflexivity..|].
  apply lookup_assign_other. intros ->. exact (Hne et u K).
Qed.
Print Assumptions C08_other_events_keep_vehicle.

(* Non-vacuity: an arrival into negative SoC under the three policies *)
Example C08_policy_example :
  let v := {| v_cs := None; v_soc := 1/10; v_desired := 1; v_etd := None; v_eta := None; v_schedule := None; v_delta := None |} in
  v_soc v + (-3/10) + 1/100000 < 0.
Proof. cbn. lra. Qed.
