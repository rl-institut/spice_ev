(* Property C20 — trip-table vehicle assignment is conflict-free and frugal.
   Model: theories/Assign.v (generate_from_csv.assign_vehicle_id), tied to /repo by the
   exact correspondence of ./check C20.  The invariants the proofs rest on are in
   theories/AssignProps.v.
   Theorems are about the processing sequence (trips in stable departure order, as
   [assign] runs them, see C20_assign_structure); [o1] is the part of the output produced
   before trip [t] gets vehicle [v]. *)
From Coq Require Import ZArith List String Permutation Lia.
From SV Require Import Assign AssignProps.
Import ListNotations.
Open Scope Z_scope.

(* consecutive trips of a vehicle are separated by MORE than the minimum standing time
   (hence, for non-negative standing times, they do not overlap) *)
Theorem C20_min_standing : forall st types ts s' vs o1 t v o2 t0,
  dep_sorted ts -> run_gen (step st) (init types) ts = Some (s', vs) ->
  combine ts vs = (o1 ++ (t,v) :: o2)%list -> In (t0,v) o1 ->
  dep t > arr t0 + st (ty t0).
Proof.
  intros st types ts s' vs o1 t v o2 t0 Hs H E Hin.
  destruct (run_from_init st types ts s' vs Hs H o1 t v o2 E) as (_ & F & _). apply Z.lt_gt, F, Hin.
Qed.
Print Assumptions C20_min_standing.

Theorem C20_no_overlap : forall st types ts s' vs o1 t v o2 t0,
  (forall k, 0 <= st k) ->
  dep_sorted ts -> run_gen (step st) (init types) ts = Some (s', vs) ->
  combine ts vs = (o1 ++ (t,v) :: o2)%list -> In (t0,v) o1 ->
  dep t > arr t0.
Proof.
  intros st types ts s' vs o1 t v o2 t0 Hst Hs H E Hin.
  pose proof (C20_min_standing st types ts s' vs o1 t v o2 t0 Hs H E Hin). specialize (Hst (ty t0)). lia.
Qed.
Print Assumptions C20_no_overlap.

(* a vehicle only serves trips of its own type *)
Theorem C20_type_pure : forall st types ts s' vs o1 t v o2,
  dep_sorted ts -> run_gen (step st) (init types) ts = Some (s', vs) ->
  combine ts vs = (o1 ++ (t,v) :: o2)%list -> fst v = ty t.
Proof.
  intros st types ts s' vs o1 t v o2 Hs H E.
  destruct (run_from_init st types ts s' vs Hs H o1 t v o2 E) as (F & _). exact F.
Qed.
Print Assumptions C20_type_pure.

(* a NEW vehicle is created only when every existing vehicle of that type is still busy
   (last arrival + standing time >= this departure), i.e. none is idle *)
Theorem C20_frugal : forall st types ts s' vs o1 t v o2,
  dep_sorted ts -> run_gen (step st) (init types) ts = Some (s', vs) ->
  combine ts vs = (o1 ++ (t,v) :: o2)%list -> (forall t0, ~ In (t0,v) o1) ->
  forall t0 v0, In (t0,v0) o1 -> fst v0 = ty t -> exists t1, In (t1,v0) o1 /\ dep t <= arr t1 + st (ty t1).
Proof.
  intros st types ts s' vs o1 t v o2 Hs H E.
  destruct (run_from_init st types ts s' vs Hs H o1 t v o2 E) as (_ & _ & F). exact F.
Qed.
Print Assumptions C20_frugal.

(* every trip gets a vehicle (given its type is known): one id per trip *)
Theorem C20_one_id_per_trip : forall st types ts s' vs,
  dep_sorted ts -> run_gen (step st) (init types) ts = Some (s', vs) -> List.length vs = List.length ts.
Proof. intros st types ts s' vs _. apply run_gen_length. Qed.
Print Assumptions C20_one_id_per_trip.

(* the function the harness compares with /repo is: stable sort by departure, the run above,
   ids put back in input order *)
Theorem C20_assign_structure : forall st types input out, assign st types input = Some out ->
  let sorted := sort_trips (number 0 input) in
  exists s' vs, run_gen (step st) (init types) (map snd sorted) = Some (s', vs) /\
    dep_sorted (map snd sorted) /\ Permutation sorted (number 0 input) /\
    out = map snd (fold_right nins [] (combine (map fst sorted) vs)).
Proof.
  intros st types input out. unfold assign, assign_gen.
  destruct (run_gen _ _ _) as [[s' vs]|]; [|discriminate].
  intros [= <-]. exists s', vs. repeat split; [apply sort_trips_sorted|apply sort_trips_perm].
Qed.
Print Assumptions C20_assign_structure.

(* selection among idle vehicles is first-in-first-out in the order they became idle *)
Theorem C20_first_idle_first : forall m idl e r, take_first m idl = Some (e, r) ->
  exists l1 l2, idl = (l1 ++ e :: l2)%list /\ r = (l1 ++ l2)%list /\ m (snd e) = true /\
    Forall (fun x => m (snd x) = false) l1.
Proof. exact take_first_some. Qed.
Print Assumptions C20_first_idle_first.

(* ... and the idle list itself is ordered by the time the vehicles became available (for trips that arrive no earlier
   than they depart and non-negative standing times): first match in this list = the matching vehicle that has been
   idle longest — the "first in, first out" principle *)
Theorem C20_idle_list_fifo : forall (st:string -> Z), (forall t, 0 <= st t) ->
  forall types ts s' vs, dep_sorted ts -> Forall (fun t => dep t <= arr t) ts ->
  run_gen (step st) (init types) ts = Some (s', vs) -> sortedE (idle s').
Proof.
  intros st Hst types ts s' vs Hs Ha H. destruct (dep_sorted_lb ts Hs) as [d Hd].
  destruct (run_J st Hst ts _ d _ _ (J_init types d) Hs Hd Ha H) as [d' HJ]. exact (j_idle_sorted _ _ HJ).
Qed.
Print Assumptions C20_idle_list_fifo.

(* The pinned upstream revision violates type purity (D3a) and frugality/FIFO (D3b). *)
Theorem C20_type_pure_refuted :
  assign_orig st0 ["bus"; "minibus"]%string d3a_trips = Some [("minibus"%string,1%nat); ("minibus"%string,1%nat)].
Proof. reflexivity. Qed.
Print Assumptions C20_type_pure_refuted.
Theorem C20_frugal_refuted : assign_orig st0 ["bus"%string] d3b_trips =
  Some [("bus"%string,1%nat); ("bus"%string,2%nat); ("bus"%string,3%nat); ("bus"%string,2%nat); ("bus"%string,4%nat)].
Proof. reflexivity. Qed.
Print Assumptions C20_frugal_refuted.

(* Non-vacuity: the repaired model on the two witness tables *)
Example C20_fixed_on_witnesses :
  assign st0 ["bus"; "minibus"]%string d3a_trips = Some [("minibus"%string,1%nat); ("bus"%string,1%nat)] /\
  assign st0 ["bus"%string] d3b_trips =
    Some [("bus"%string,1%nat); ("bus"%string,2%nat); ("bus"%string,3%nat); ("bus"%string,1%nat); ("bus"%string,2%nat)].
Proof. split; reflexivity. Qed.
