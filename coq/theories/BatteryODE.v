(* BatteryODE.v — the closed forms used by _adjust_soc on one linear section
   P(s) = m*s + n are the solution of dSoC/dt = P(SoC)/c (property C02, section level). *)
From Coq Require Import Reals Lra.
From Coquelicot Require Import Coquelicot.
Open Scope R_scope.

(* |m| >= EPS branch:  new_soc = -n/m + (n/m + soc) * exp(m/c * t) *)
Definition flow (m n c s0 t:R) : R := - n / m + (n / m + s0) * exp (m / c * t).
(* |m| < EPS branch:   new_soc = soc + n/c * t *)
Definition flow_flat (n c s0 t:R) : R := s0 + n / c * t.

Lemma flow_0 m n c s0 : flow m n c s0 0 = s0.
Proof. unfold flow. rewrite Rmult_0_r, exp_0. lra. Qed.

Lemma flow_ode m n c s0 t : m <> 0 -> c <> 0 ->
  is_derive (fun t => flow m n c s0 t) t ((m * flow m n c s0 t + n) / c).
Proof.
  intros Hm Hc. unfold flow. auto_derive; [exact I|]. field. split; assumption.
Qed.

Lemma flow_flat_ode n c s0 t : is_derive (fun t => flow_flat n c s0 t) t (n / c).
Proof. unfold flow_flat. auto_derive; [exact I|]. ring. Qed.
Lemma flow_flat_0 n c s0 : flow_flat n c s0 0 = s0.
Proof. unfold flow_flat. ring. Qed.

(* two consecutive steps on the same section equal one step over the summed duration *)
Lemma flow_semigroup m n c s0 t1 t2 : m <> 0 ->
  flow m n c (flow m n c s0 t1) t2 = flow m n c s0 (t1 + t2).
Proof.
  intros Hm. unfold flow. rewrite Rmult_plus_distr_l, exp_plus. field. exact Hm.
Qed.
Lemma flow_flat_semigroup n c s0 t1 t2 : flow_flat n c (flow_flat n c s0 t1) t2 = flow_flat n c s0 (t1 + t2).
Proof. unfold flow_flat. ring. Qed.

(* the code's time-to-breakpoint  t = log((x2 + n/m)/(soc + n/m)) * c/m  reaches x2 exactly *)
Lemma flow_time m n c s0 x2 : m <> 0 -> c <> 0 -> 0 < (x2 + n / m) / (s0 + n / m) ->
  flow m n c s0 (ln ((x2 + n / m) / (s0 + n / m)) * c / m) = x2.
Proof.
  intros Hm Hc Hq. unfold flow.
  replace (- n / m) with (- (n / m)) by (field; exact Hm).
  set (r := n / m) in *.
  assert (Hd : s0 + r <> 0).
  { intros E. rewrite E in Hq. unfold Rdiv in Hq. rewrite Rinv_0 in Hq. lra. }
  replace (m / c * (ln ((x2 + r) / (s0 + r)) * c / m)) with (ln ((x2 + r) / (s0 + r)))
    by (field; split; assumption).
  rewrite exp_ln by exact Hq. field. exact Hd.
Qed.
Lemma flow_flat_time n c s0 x2 : n <> 0 -> c <> 0 -> flow_flat n c s0 ((x2 - s0) * c / n) = x2.
Proof. intros Hn Hc. unfold flow_flat. field. split; assumption. Qed.

(* the power P(s) = m*s + n grows or decays exponentially along the flow: it keeps its sign,
   so the flow never crosses the zero of P *)
Lemma flow_power m n c s0 t : m <> 0 -> m * flow m n c s0 t + n = (m * s0 + n) * exp (m / c * t).
Proof. intros Hm. unfold flow. field. exact Hm. Qed.

Lemma exp_le a b : a <= b -> exp a <= exp b.
Proof. intros [H| ->]; [left; apply exp_increasing; exact H | right; reflexivity]. Qed.

(* the integral of exp (k*tau) over [t1,t2] *)
Lemma exp_diff_quot_pos k t1 t2 : k <> 0 -> t1 <= t2 -> 0 <= (exp (k * t2) - exp (k * t1)) / k.
Proof.
  intros Hk Ht. destruct (Rlt_dec 0 k) as [Hp|Hn].
  - apply Rdiv_le_0_compat; [|exact Hp].
    apply -> Rminus_le_0. apply exp_le, Rmult_le_compat_l; lra.
  - replace (_ / k) with ((exp (k * t1) - exp (k * t2)) / - k) by (field; exact Hk).
    apply Rdiv_le_0_compat; [|lra].
    apply -> Rminus_le_0. apply exp_le, Rmult_le_compat_neg_l; lra.
Qed.

(* the SoC moves by the initial rate P(s0)/c times that integral: monotonically in t, in the
   direction of the sign of P(s0)/c *)
Lemma flow_monotone m n c s0 t1 t2 : m <> 0 -> c <> 0 -> t1 <= t2 ->
  (0 <= (m * s0 + n) / c -> flow m n c s0 t1 <= flow m n c s0 t2) /\
  ((m * s0 + n) / c <= 0 -> flow m n c s0 t2 <= flow m n c s0 t1).
Proof.
  intros Hm Hc Ht.
  assert (Hk : m / c <> 0).
  { apply Rmult_integral_contrapositive_currified; [exact Hm|]. apply Rinv_neq_0_compat, Hc. }
  pose proof (exp_diff_quot_pos (m / c) t1 t2 Hk Ht) as Hi.
  set (i := (exp (m / c * t2) - exp (m / c * t1)) / (m / c)) in Hi.
  assert (E : flow m n c s0 t2 - flow m n c s0 t1 = (m * s0 + n) / c * i).
  { unfold flow, i. field. split; assumption. }
  split; intros HP.
  - assert (0 <= (m * s0 + n) / c * i) by (apply Rmult_le_pos; assumption). lra.
  - assert (0 <= - ((m * s0 + n) / c) * i) by (apply Rmult_le_pos; lra). lra.
Qed.

Lemma scale_between q a y b : a <= y <= b \/ b <= y <= a ->
  q * a <= q * y <= q * b \/ q * b <= q * y <= q * a.
Proof.
  intros H. destruct (Rle_dec 0 q) as [Hq|Hq].
  - destruct H as [[]|[]]; [left|right]; split; apply Rmult_le_compat_l; assumption.
  - destruct H as [[]|[]]; [right|left]; split; apply Rmult_le_compat_neg_l; lra.
Qed.
Lemma between_min_max a y b : a <= y <= b \/ b <= y <= a -> Rmin a b <= y <= Rmax a b.
Proof.
  pose proof (Rmin_l a b). pose proof (Rmin_r a b). pose proof (Rmax_l a b). pose proof (Rmax_r a b). lra.
Qed.

(* why, on a section, energy/time lies between P(s0) and P(new) *)
Lemma exp_minus_1_bounds x : x <= exp x - 1 <= x * exp x.
Proof.
  split.
  - pose proof (exp_ineq1_le x). lra.
  - (* e^x - 1 <= x e^x  <=>  (1 - x) e^x <= 1  <=>  1 - x <= e^-x *)
    pose proof (exp_ineq1_le (- x)) as H.
    apply Rmult_le_compat_r with (r := exp x) in H; [|left; apply exp_pos].
    rewrite <- exp_plus, Rplus_opp_l, exp_0 in H. lra.
Qed.
