(* WindowsProps.v — theory for property C15 (axiom-free): the window tests as propositions, the first season
   containing a date, the window series loop. *)
From Coq Require Import ZArith List Bool Lia.
From SV Require Import Windows.
Import ListNotations.
Open Scope Z_scope.

(* half-open window [start, end), wrapping over midnight when end < start *)
Definition in_win_spec (t:Z) (w:Z*Z) : Prop :=
  (snd w < fst w /\ (fst w <= t \/ t < snd w)) \/ (fst w <= snd w /\ fst w <= t < snd w).
Lemma in_win_iff t w : in_win t w = true <-> in_win_spec t w.
Proof. unfold in_win, in_win_spec. destruct (snd w <? fst w) eqn:E; lia. Qed.

(* the core-standing-time test includes the end instant of a non-wrapping window *)
Definition in_core_win_spec (t:Z) (w:Z*Z) : Prop :=
  (snd w < fst w /\ (fst w <= t \/ t < snd w)) \/ (fst w <= snd w /\ fst w <= t <= snd w).
Lemma in_core_win_iff t w : in_core_win t w = true <-> in_core_win_spec t w.
Proof. unfold in_core_win, in_core_win_spec. destruct (snd w <? fst w) eqn:E; lia. Qed.
(* the property text says "before the configured end" *)
Definition half_open_core (t:Z) (w:Z*Z) : Prop :=
  (snd w < fst w /\ (fst w <= t \/ t < snd w)) \/ (fst w <= snd w /\ fst w <= t < snd w).

Lemma existsb_eqb x l : existsb (Z.eqb x) l = true <-> In x l.
Proof.
  rewrite existsb_exists. split; [intros (y & Hy & E); apply Z.eqb_eq in E; subst y; exact Hy|].
  intros H. exists x. split; [exact H|apply Z.eqb_refl].
Qed.

Definition covers (s:season) (day:Z) : Prop := s_first s <= day <= s_last s.
Inductive first_season (day:Z) : list season -> season -> Prop :=
  | fs_here s r : covers s day -> first_season day (s::r) s
  | fs_later s r s' : ~ covers s day -> first_season day r s' -> first_season day (s::r) s'.

Lemma within_window_cons day t s r lvl : within_window day t (s :: r) lvl =
  if (s_first s <=? day) && (day <=? s_last s) then existsb (in_win t) (wins_of lvl (s_wins s)) else within_window day t r lvl.
Proof. reflexivity. Qed.
Lemma covers_iff s day : (s_first s <=? day) && (day <=? s_last s) = true <-> covers s day.
Proof. unfold covers. lia. Qed.

(* steps_between is the ceiling of (stop - start) / delta: positive exactly while the loop condition holds, and one less
   after each round *)
Lemma steps_between_pos start stop delta : 0 < delta -> (0 < steps_between start stop delta <-> start < stop).
Proof. unfold steps_between. intros H. Z.div_mod_to_equations. nia. Qed.
Lemma steps_between_step start stop delta : 0 < delta ->
  steps_between start stop delta = steps_between (start + delta) stop delta + 1.
Proof. intros H. unfold steps_between. rewrite <- Z.div_add by lia. f_equal. ring. Qed.

(* the while loop of get_time_windows_from_json with fuel for that many rounds *)
Lemma series_loop_spec seasons lvl delta stop : 0 < delta -> forall fuel cur,
  steps_between cur stop delta <= Z.of_nat fuel ->
  exists l, series_loop fuel cur stop delta seasons lvl = Some l /\
    Z.of_nat (length l) = Z.max 0 (steps_between cur stop delta) /\
    forall k, (k < length l)%nat -> nth_error l k = Some (dt_within_window (cur + Z.of_nat k * delta) seasons lvl).
Proof.
  intros Hd. induction fuel as [|f IH]; intros cur Hf; cbn [series_loop];
    pose proof (steps_between_pos cur stop delta Hd) as Hp; destruct (cur <? stop) eqn:E.
  2,4: exists []; cbn; repeat split; [lia|intros k Hk; lia].
  - lia.
  - rewrite (steps_between_step cur stop delta Hd) in Hf, Hp |- *.
    destruct (IH (cur + delta)) as (l & -> & Hlen & Hnth); [lia|].
    eexists. split; [reflexivity|]. split; [cbn [length]; lia|].
    intros [|k] Hk; cbn [nth_error]; [|cbn in Hk; rewrite Hnth by lia]; do 2 f_equal; lia.
Qed.
