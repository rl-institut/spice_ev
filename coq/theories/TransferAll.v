(* TransferAll.v — Q -> R transfer for every Num-generic model: Curve, Battery, Costs, Events, RunLoop, Strat, Gen,
   Report.  Statements are relational: inputs related by the parametricity relation at [QR q r := Q2R q = r]
   give related results (equal up to Q2R, same error).  [Total] shows that every executable (Q) input HAS a
   related R input, so the statements are not vacuous.  Battery / Strat use exp and ln: their R side is [RNumT tbl]
   (exp/ln answered from the recorded, validated table); all others are shown exp/ln-free by conversion and are
   stated against [RNum], the instance every theorem in *Props.v is about. *)
From Coq Require Import Qreals Reals List.
From Param Require Import Param.
From SV Require Import Num RNum Transfer TransferK Curve Battery Costs Events RunLoop Strat Gen Report.
Import ListNotations.

(* closes the fixpoint-unfolding equations that Paramcoq emits as obligations *)
Ltac destruct_reflexivity :=
  intros ; repeat match goal with
    | [ x : _ |- _ = _ ] => destruct x; reflexivity; fail
  end.
Global Parametricity Tactic := ((destruct_reflexivity; fail) || auto).

(* [qualified]: the translation of SV.Curve.curve is named SV_o_Curve_o_curve_R, and so on; the models reuse short names
   (lookup, nsum, load) that would clash otherwise *)
Parametricity Recursive Curve.mk_curve qualified.
Parametricity Recursive Curve.power_from_soc qualified.
Parametricity Recursive Curve.clamped qualified.
Parametricity Recursive Curve.section_boundary qualified.
Parametricity Recursive Curve.default_discharge qualified.
Parametricity Recursive Battery.load qualified.
Parametricity Recursive Battery.unload qualified.
Parametricity Recursive Battery.available_power qualified.
Parametricity Recursive Costs.calculate_costs qualified.
Parametricity Recursive Events.event_steps qualified.
Parametricity Recursive Events.sort_events qualified.
Parametricity Recursive Events.pre_step qualified.
Parametricity Recursive RunLoop.run qualified.
Parametricity Recursive RunLoop.step_ok qualified.
Parametricity Recursive Strat.strategy_step qualified.
Parametricity Recursive Strat.vehicle_charge qualified.
Parametricity Recursive Gen.stat_vehicle qualified.
Parametricity Recursive Gen.csv_vehicle qualified.
Parametricity Recursive Report.split_feedin qualified.

Class Total {A B} (AR:A->B->Type) := total : forall a, {b & AR a b}.
#[export] Instance QR_total : Total QR := fun q => existT _ (Q2R q) eq_refl.
#[export] Instance Z_total : Total Z_R := fun z => existT _ z (Z_R_refl z).
#[export] Instance nat_total : Total nat_R := fun z => existT _ z (nat_R_refl z).
#[export] Instance bool_total : Total bool_R := fun z => existT _ z (bool_R_refl z).
#[export] Instance string_total : Total string_R := fun z => existT _ z (string_R_refl z).
#[export] Instance list_total {A B} (AR:A->B->Type) `{Total A B AR} : Total (list_R A B AR).
Proof. intros l. induction l as [|a l [l' Hl]]; [exists []; constructor|]. destruct (total a) as [b Hb].
  exists (b::l'). constructor; assumption. Defined.
#[export] Instance option_total {A B} (AR:A->B->Type) `{Total A B AR} : Total (option_R A B AR).
Proof. intros [a|]; [destruct (total a) as [b Hb]; exists (Some b)|exists None]; constructor; assumption. Defined.
#[export] Instance prod_total {A B} (AR:A->B->Type) {C D} (CR:C->D->Type) `{Total A B AR} `{Total C D CR} : Total (prod_R A B AR C D CR).
Proof. intros [a c]. destruct (total a) as [b Hb]. destruct (total c) as [d Hd]. exists (b,d). constructor; assumption. Defined.
(* a record has a related record: build it field by field, each field from the Total instance of its type *)
Ltac field_total := match goal with |- ?AR ?a _ => apply (projT2 (@total _ _ AR _ a)) end.
Ltac rec_total := intros x; destruct x; eexists; econstructor; field_total.

#[export] Instance cost_total : Total (cost_R Q R QR). Proof. rec_total. Defined.
#[export] Instance curve_total : Total (SV_o_Curve_o_curve_R Q R QR). Proof. rec_total. Defined.
#[export] Instance bat_total : Total (SV_o_Battery_o_bat_R Q R QR). Proof. rec_total. Defined.
#[export] Instance target_total : Total (SV_o_Battery_o_target_R Q R QR). Proof. rec_total. Defined.
#[export] Instance sheet_total : Total (SV_o_Costs_o_sheet_R Q R QR). Proof. rec_total. Defined.
#[export] Instance cctype_total : Total SV_o_Costs_o_cctype_R. Proof. rec_total. Defined.
#[export] Instance fee_total : Total SV_o_Costs_o_fee_R. Proof. rec_total. Defined.
#[export] Instance inputs_total : Total (SV_o_Costs_o_inputs_R Q R QR). Proof. rec_total. Defined.
#[export] Instance load_total : Total (SV_o_RunLoop_o_load_R Q R QR). Proof. rec_total. Defined.
#[export] Instance csobs_total : Total (SV_o_RunLoop_o_csobs_R Q R QR). Proof. rec_total. Defined.
#[export] Instance gcobs_total : Total (SV_o_RunLoop_o_gcobs_R Q R QR). Proof. rec_total. Defined.
#[export] Instance stepobs_total : Total (SV_o_RunLoop_o_stepobs_R Q R QR). Proof. rec_total. Defined.

Section T.
Variable tbl : oracle.
(* [NR] speaks of [RNumT tbl]; where a statement says [RNum], [exact] checks by conversion that the function uses
   neither exp nor ln *)
Let NR := QNum_RNumT tbl.

Theorem mk_curve_transfer l l' : list_R _ _ (prod_R Q R QR Q R QR) l l' ->
  res_R _ _ (SV_o_Curve_o_curve_R Q R QR) (@mk_curve Q (QNum tbl) l) (@mk_curve R RNum l').
Proof. intros H. exact (SV_o_Curve_o_mk_curve_R Q R QR _ _ NR l l' H). Qed.

Theorem power_from_soc_transfer c c' s : SV_o_Curve_o_curve_R Q R QR c c' ->
  res_R Q R QR (@power_from_soc Q (QNum tbl) c s) (@power_from_soc R RNum c' (Q2R s)).
Proof. intros H. exact (SV_o_Curve_o_power_from_soc_R Q R QR _ _ NR c c' H s _ eq_refl). Qed.

Theorem clamped_transfer c c' lim pre post : SV_o_Curve_o_curve_R Q R QR c c' ->
  res_R _ _ (SV_o_Curve_o_curve_R Q R QR) (@clamped Q (QNum tbl) c lim pre post) (@clamped R RNum c' (Q2R lim) (Q2R pre) (Q2R post)).
Proof. intros H.
  exact (SV_o_Curve_o_clamped_R Q R QR _ _ NR c c' H lim _ eq_refl pre _ eq_refl post _ eq_refl). Qed.

Theorem section_boundary_transfer c c' s : SV_o_Curve_o_curve_R Q R QR c c' ->
  res_R _ _ (prod_R nat nat nat_R nat nat nat_R) (@section_boundary Q (QNum tbl) c s) (@section_boundary R RNum c' (Q2R s)).
Proof. intros H. exact (SV_o_Curve_o_section_boundary_R Q R QR _ _ NR c c' H s _ eq_refl). Qed.

(* battery: the R side answers exp/ln from the same table *)
Theorem load_transfer b b' h mp mp' tg tg' : SV_o_Battery_o_bat_R Q R QR b b' -> option_R Q R QR mp mp' -> SV_o_Battery_o_target_R Q R QR tg tg' ->
  res_R _ _ (prod_R _ _ (prod_R _ _ (SV_o_Battery_o_bat_R Q R QR) Q R QR) Q R QR)
    (@Battery.load Q (QNum tbl) b h mp tg) (@Battery.load R (RNumT tbl) b' (Q2R h) mp' tg').
Proof. intros Hb Hm Ht. exact (SV_o_Battery_o_load_R Q R QR _ _ NR b b' Hb h _ eq_refl mp mp' Hm tg tg' Ht). Qed.
Theorem unload_transfer b b' h mp mp' tg tg' : SV_o_Battery_o_bat_R Q R QR b b' -> option_R Q R QR mp mp' -> SV_o_Battery_o_target_R Q R QR tg tg' ->
  res_R _ _ (prod_R _ _ (prod_R _ _ (SV_o_Battery_o_bat_R Q R QR) Q R QR) Q R QR)
    (@Battery.unload Q (QNum tbl) b h mp tg) (@Battery.unload R (RNumT tbl) b' (Q2R h) mp' tg').
Proof. intros Hb Hm Ht. exact (SV_o_Battery_o_unload_R Q R QR _ _ NR b b' Hb h _ eq_refl mp mp' Hm tg tg' Ht). Qed.
Theorem available_power_transfer b b' h : SV_o_Battery_o_bat_R Q R QR b b' ->
  res_R _ _ (prod_R _ _ (SV_o_Battery_o_bat_R Q R QR) Q R QR)
    (@available_power Q (QNum tbl) b h) (@available_power R (RNumT tbl) b' (Q2R h)).
Proof. intros Hb. exact (SV_o_Battery_o_available_power_R Q R QR _ _ NR b b' Hb h _ eq_refl). Qed.

Theorem calculate_costs_transfer sh sh' inp inp' : SV_o_Costs_o_sheet_R Q R QR sh sh' -> SV_o_Costs_o_inputs_R Q R QR inp inp' ->
  res_R _ _ (SV_o_Costs_o_outputs_R Q R QR) (@calculate_costs Q (QNum tbl) sh inp) (@calculate_costs R RNum sh' inp').
Proof. intros H1 H2. exact (SV_o_Costs_o_calculate_costs_R Q R QR _ _ NR sh sh' H1 inp inp' H2). Qed.

Theorem run_transfer eps steps steps' : list_R _ _ (SV_o_RunLoop_o_stepobs_R Q R QR) steps steps' ->
  prod_R _ _ (list_R _ _ (SV_o_RunLoop_o_row_R Q R QR)) _ _ bool_R (@RunLoop.run Q (QNum tbl) eps steps) (@RunLoop.run R RNum (Q2R eps) steps').
Proof. intros H. exact (SV_o_RunLoop_o_run_R Q R QR _ _ NR eps _ eq_refl steps steps' H). Qed.
Theorem step_ok_transfer eps s s' : SV_o_RunLoop_o_stepobs_R Q R QR s s' ->
  @RunLoop.step_ok Q (QNum tbl) eps s = @RunLoop.step_ok R RNum (Q2R eps) s'.
Proof. intros H. apply bool_R_eq. exact (SV_o_RunLoop_o_step_ok_R Q R QR _ _ NR eps _ eq_refl s s' H). Qed.

Theorem pre_step_transfer o o' w w' evs evs' : SV_o_Events_o_options_R Q R QR o o' -> SV_o_Events_o_world_R Q R QR w w' ->
  list_R _ _ (SV_o_Events_o_event_t_R Q R QR) evs evs' ->
  prod_R _ _ (SV_o_Events_o_world_R Q R QR) _ _ (option_R _ _ err_R) (@pre_step Q (QNum tbl) o w evs) (@pre_step R RNum o' w' evs').
Proof. intros H1 H2 H3. exact (SV_o_Events_o_pre_step_R Q R QR _ _ NR o o' H1 w w' H2 evs evs' H3). Qed.

Theorem strategy_step_transfer s o o' w w' : SV_o_Strat_o_sopts_R Q R QR o o' -> SV_o_Strat_o_sworld_R Q R QR w w' ->
  res_R _ _ (prod_R _ _ (SV_o_Strat_o_sworld_R Q R QR) _ _ (list_R _ _ (prod_R _ _ string_R Q R QR)))
    (@strategy_step Q (QNum tbl) s o w) (@strategy_step R (RNumT tbl) s o' w').
Proof. intros H1 H2. refine (SV_o_Strat_o_strategy_step_R Q R QR _ _ NR s s _ o o' H1 w w' H2). destruct s; constructor. Qed.

Theorem split_feedin_transfer g gen cs :
  prod_R _ _ (prod_R Q R QR Q R QR) Q R QR (@split_feedin Q (QNum tbl) g gen cs) (@split_feedin R RNum (Q2R g) (Q2R gen) (Q2R cs)).
Proof. exact (SV_o_Report_o_split_feedin_R Q R QR _ _ NR g _ eq_refl gen _ eq_refl cs _ eq_refl). Qed.

Theorem stat_vehicle_transfer ms buf days trips trips' : list_R _ _ (SV_o_Gen_o_strip_R Q R QR) trips trips' ->
  SV_o_Gen_o_sstate_R Q R QR (@stat_vehicle Q (QNum tbl) ms buf days trips) (@stat_vehicle R RNum (Q2R ms) (Q2R buf) days trips').
Proof. intros H.
  exact (SV_o_Gen_o_stat_vehicle_R Q R QR _ _ NR ms _ eq_refl buf _ eq_refl days days (nat_R_refl _) trips trips' H). Qed.
Theorem csv_vehicle_transfer ms stop rows rows' : list_R _ _ (SV_o_Gen_o_crow_R Q R QR) rows rows' ->
  SV_o_Gen_o_cstate_R Q R QR (@csv_vehicle Q (QNum tbl) ms stop rows) (@csv_vehicle R RNum (Q2R ms) stop rows').
Proof. intros H.
  exact (SV_o_Gen_o_csv_vehicle_R Q R QR _ _ NR ms _ eq_refl stop stop (Z_R_refl _) rows rows' H). Qed.
End T.
