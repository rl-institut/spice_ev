(* EventsProps.v — theory of the Events model behind properties C07 and C08: delivery steps, the sorted queue and
   its loop, the case table of what one event can change (any number type, axiom-free), the connector limits on the
   R instance. *)
From Coq Require Import Reals List Lia Sorted Permutation.
From SV Require Import Num Events Sorting Dict.
Import ListNotations.
Open Scope Z_scope.

Section Events.
Context {T} {N: Num T}.
Notation ev := (@event_t T).

(* the step an event is delivered to: 0 if signalled before the start, none if signalled at or after the end *)
Definition delivered_at (t0 delta:Z) (n:nat) (e:ev) : option nat :=
  let idx := event_index t0 delta e in
  if idx <? 0 then (match n with O => None | _ => Some O end) else if Z.of_nat n <=? idx then None else Some (Z.to_nat idx).

Lemma delivered_bound t0 delta n (e:ev) j : delivered_at t0 delta n e = Some j -> (j < n)%nat.
Proof.
  unfold delivered_at.
  destruct (Z.ltb_spec (event_index t0 delta e) 0), (Z.leb_spec (Z.of_nat n) (event_index t0 delta e)), n;
    intros [= <-]; lia.
Qed.

(* EnergyValuesList.get_events: event i carries vals[i]*factor — 0*factor after the last value — and starts at
   start + i*step *)
Lemma series_nth_error mk gc name step fs (factor:T) start0 : forall vals start i,
  nth_error (series_events mk gc name start step fs factor start0 vals) i =
  option_map (fun v => let t := start + Z.of_nat i * step in
                       {| e_start := t; e_signal := if fs then start0 else t; e_kind := mk gc name (nmul v factor) |})
             (nth_error (vals ++ [zero]) i).
Proof.
  induction vals as [|x r IH]; intros start [|i]; cbn [series_events nth_error app option_map].
  - rewrite Z.add_0_r. reflexivity.
  - destruct i; reflexivity.
  - rewrite Z.add_0_r. reflexivity.
  - rewrite IH.
    replace (start + step + Z.of_nat i * step) with (start + Z.of_nat (S i) * step) by lia. reflexivity.
Qed.

Definition le_start (a b:ev) : Prop := e_start a <= e_start b.
Definition sortedS (l:list ev) : Prop := StronglySorted le_start l.

(* future_events.sort(key=start_time) is the stable insertion sort with key e_start *)
Lemma sort_events_perm l : Permutation (@sort_events T l) l.
Proof. apply (sort_by_perm (fun x e : ev => e_start x <? e_start e)). Qed.
Lemma sort_events_sorted l : sortedS (@sort_events T l).
Proof.
  apply (sort_by_sorted (fun x e : ev => e_start x <? e_start e)); unfold le_start; lia.
Qed.

(* apply events one after the other, stop at the first error (no time test); [rest] is threaded, and the queue set
   before every event, as [apply_due] does, so that the two end in the same world *)
Fixpoint apply_all (o:@options T) (w:@world T) (evs rest:list ev) : @world T * option err := match evs with
  | [] => (set_future w rest, None)
  | e :: r => match apply_event o (set_future w (r ++ rest)) e with
      | (w', None) => apply_all o w' r rest
      | (w', Some x) => (set_future w' (r ++ rest), Some x) end end.

(* all that one event can do to the world: nothing; replace one existing connector, keeping its rating, the limit kept
   or set by the limit rule; replace the event's own vehicle, the counters and the tracker *)
Inductive event_effect (w:@world T) (e:ev) : @world T -> Prop :=
  | eff_none : event_effect w e w
  | eff_gc gc g g' : lookup gc (w_gcs w) = Some g -> g_maxp g' = g_maxp g ->
      g_cur g' = g_cur g \/ (exists m, g_cur g' = Kernel.apply_limit (g_maxp g) (g_cur g) m) -> event_effect w e (upd_gc w gc g')
  | eff_veh vid et u v dc mc tr : e_kind e = EVeh vid et u ->
      event_effect w e {| w_time := w_time w; w_gcs := w_gcs w; w_veh := assign vid v (w_veh w); w_cs := w_cs w;
                          w_bat := w_bat w; w_future := w_future w; w_desired_cnt := dc; w_margin_cnt := mc; w_tracker := tr |}.

Lemma apply_event_effect o w (e:ev) : event_effect w e (fst (apply_event o w e)).
Proof.
  unfold apply_event. destruct (e_kind e) as [gc name x|gc name x|gc m c t wd|vid et u] eqn:K.
  1-3: destruct (lookup gc (w_gcs w)) as [g|] eqn:L; try destruct (mem name (w_cs w)); try apply eff_none;
    apply (eff_gc w e gc g); cbn; eauto.
  destruct (lookup vid (w_veh w)); [|apply eff_none].
  destruct et; [destruct (v_delta _); [destruct (nltb _ _); [destruct (o_allow_neg o)|]|]| |]; eapply eff_veh; exact K.
Qed.

Lemma apply_event_time o w (e:ev) : w_time (fst (apply_event o w e)) = w_time w.
Proof. destruct (apply_event_effect o w e); reflexivity. Qed.

Lemma apply_all_ok o : forall (due:list ev) w rest w', apply_all o w due rest = (w', None) ->
  w_future w' = rest /\ w_time w' = w_time w.
Proof.
  induction due as [|e r IH]; intros w rest w' H; cbn in H.
  - injection H as <-. auto.
  - pose proof (apply_event_time o (set_future w (r ++ rest)) e) as Ht.
    destruct (apply_event o (set_future w (r ++ rest)) e) as [w1 [x|]]; [discriminate|].
    destruct (IH w1 rest w' H) as [-> ->]. auto.
Qed.

Lemma finish_future (w w':@world T) e : finish w = (w', e) -> w_future w' = w_future w /\ w_time w' = w_time w.
Proof. unfold finish. destruct (finish_go w [] (w_gcs w)). intros H; injection H as <- _. auto. Qed.
End Events.

Open Scope R_scope.
Notation Rworld := (@world R).

Notation Rveh := (@vehicle R).

Record arrival_result (o:@options R) (v0:Rveh) (u:@update R) (d:R) (v':Rveh) : Prop := {
  ar_cs : v_cs v' = match u_cs u with Some x => x | None => v_cs v0 end;
  ar_etd : v_etd v' = match u_etd u with Some x => x | None => v_etd v0 end;
  ar_desired : v_desired v' = match u_desired u with Some x => x | None => v_desired v0 end }.

Definition limits_ok (w:Rworld) : Prop :=
  forall k g, lookup k (w_gcs w) = Some g -> g_maxp g <> 0 -> match g_cur g with Some c => c <= g_maxp g | None => True end.

Lemma limits_ok_upd (w:Rworld) gc g : limits_ok w ->
  (g_maxp g <> 0 -> match g_cur g with Some c => c <= g_maxp g | None => True end) -> limits_ok (upd_gc w gc g).
Proof.
  intros H Hg k g2 Hl Hr. cbn [upd_gc w_gcs] in Hl. destruct (String.eqb_spec k gc) as [->|E].
  - rewrite lookup_assign_same in Hl. injection Hl as <-. exact (Hg Hr).
  - rewrite lookup_assign_other in Hl by exact E. exact (H k g2 Hl Hr).
Qed.
