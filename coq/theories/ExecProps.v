(* ExecProps.v — theorems about the EXECUTABLE (Q) instance, i.e. about the very terms that the correspondence
   check evaluates with vm_compute and compares with /repo, obtained from the theorems on R through Transfer. *)
From Coq Require Import Qminmax Qreals Reals List.
From SV Require Import Num RNum Transfer TransferK TransferAll Kernel KernelProps Report ReportProps RunLoop RunLoopProps Curve.

Lemma Qle_R x y : (x <= y)%Q <-> (Q2R x <= Q2R y)%R.
Proof. split; [apply Qle_Rle|apply Rle_Qle]. Qed.
Lemma Q2R_max x y : Q2R (Qmax x y) = Rmax (Q2R x) (Q2R y).
Proof. destruct (Qlt_le_dec x y) as [L|L].
  - rewrite Q.max_r, Rmax_right; auto using Qle_Rle, Qlt_le_weak.
  - rewrite Q.max_l, Rmax_left; auto using Qle_Rle.
Qed.

Theorem clamp_exec_nonneg tbl p cur mx mn vm : (0 <= @clamp_power Q (QNum tbl) p cur mx mn vm)%Q.
Proof. apply Qle_R. rewrite Q2R_Z, clamp_power_transfer. apply clamp_nonneg. Qed.
Theorem clamp_exec_within_max tbl p cur mx mn vm : (cur <= mx)%Q -> (cur + @clamp_power Q (QNum tbl) p cur mx mn vm <= mx)%Q.
Proof. rewrite !Qle_R, Q2R_plus, clamp_power_transfer. apply clamp_within_max. Qed.
Theorem clamp_exec_le_power tbl p cur mx mn vm : (0 <= p)%Q -> (@clamp_power Q (QNum tbl) p cur mx mn vm <= p)%Q.
Proof. rewrite !Qle_R, Q2R_Z, clamp_power_transfer. apply clamp_le_power. Qed.
Theorem clamp_exec_positive_respects_min tbl p cur mx mn vm : (0 < @clamp_power Q (QNum tbl) p cur mx mn vm)%Q ->
  (mn <= cur + @clamp_power Q (QNum tbl) p cur mx mn vm)%Q /\ (vm <= cur + @clamp_power Q (QNum tbl) p cur mx mn vm)%Q.
Proof. intros H. apply Qlt_Rlt in H. rewrite Q2R_Z, clamp_power_transfer in H.
  destruct (clamp_positive_respects_min _ _ _ _ _ H) as (A & B & _).
  rewrite !Qle_R, Q2R_plus, clamp_power_transfer. auto. Qed.

Lemma split_exec tbl g ge cs : @split_feedin R RNum (Q2R g) (Q2R ge) (Q2R cs) =
  let '(gen, v2g, bat) := @split_feedin Q (QNum tbl) g ge cs in (Q2R gen, Q2R v2g, Q2R bat).
Proof.
  pose proof (split_feedin_transfer tbl g ge cs) as H.
  destruct (@split_feedin Q _ g ge cs) as [[a b] c], (@split_feedin R _ _ _ _) as [[a' b'] c'].
  inversion H as [? ? H1 ? ? H2]; subst. inversion H1 as [? ? H3 ? ? H4]. congruence.
Qed.
Theorem split_exec_nonneg tbl g ge cs :
  let '(gen, v2g, bat) := @split_feedin Q (QNum tbl) g ge cs in (0 <= gen)%Q /\ (0 <= v2g)%Q /\ (0 <= bat)%Q.
Proof.
  pose proof (split_nonneg (Q2R g) (Q2R ge) (Q2R cs)) as P. rewrite (split_exec tbl) in P.
  destruct (@split_feedin Q _ g ge cs) as [[a b] c]. rewrite !Qle_R, Q2R_Z. exact P.
Qed.
Theorem split_exec_sum tbl g ge cs : (ge <= 0)%Q -> (cs <= 0)%Q ->
  let '(gen, v2g, bat) := @split_feedin Q (QNum tbl) g ge cs in (gen + v2g + bat == Qmax g 0)%Q.
Proof.
  rewrite !Qle_R, Q2R_Z. intros Hg Hc. pose proof (split_spec (Q2R g) (Q2R ge) (Q2R cs) Hg Hc) as P.
  rewrite (split_exec tbl) in P. destruct (@split_feedin Q _ g ge cs) as [[a b] c].
  destruct P as (_ & _ & _ & S & _). apply eqR_Qeq. rewrite !Q2R_plus, S, Q2R_max, Q2R_Z. reflexivity.
Qed.

(* Scenario.run on rationals needs no transfer: the structure lemmas hold for any number type *)
Theorem run_exec_abort_iff_invalid_step tbl eps (steps:list (@stepobs Q)) :
  @aborted Q (QNum tbl) eps steps = false <-> forallb (@step_ok Q (QNum tbl) eps) steps = true.
Proof. apply aborted_iff. Qed.
Theorem run_exec_rows_bounded tbl eps (steps:list (@stepobs Q)) :
  (List.length (fst (@run Q (QNum tbl) eps steps)) <= List.length steps)%nat.
Proof. apply run_length. Qed.

(* the real image of a rational curve, related to it by the generated relation on curves (TransferAll.v): the
   hypotheses of C03_exec_lookup_total_bounded are stated on it *)
Definition curveQ2R (c:@curve Q) : @curve R :=
  {| pts := map (fun p => (Q2R (fst p), Q2R (snd p))) (pts c); maxp := Q2R (maxp c) |}.
Lemma curveQ2R_rel (c:@curve Q) : SV_o_Curve_o_curve_R Q R QR c (curveQ2R c).
Proof.
  destruct c as [p m]. constructor; [|reflexivity]. apply list_R_map. intros [a b]. constructor; reflexivity.
Qed.
