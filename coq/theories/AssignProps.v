(* AssignProps.v — the loop invariants of assign_vehicle_id (property C20): what one step does to the two queues
   ([step_cases]), how the queue entries relate to the trips served so far ([Hist], [Inv]), what follows for each
   trip of a run ([step_facts], [run_from_init]), and the order of the idle list ([J], [run_J]).
   Axiom-free (Z, lists, strings). *)
From Coq Require Import ZArith List String Lia Sorted Permutation.
From SV Require Import Assign Sorting.
Import ListNotations.
Open Scope Z_scope.

Definition le_e (a b:entry) : Prop := fst a <= fst b.
Definition sortedE (l:list entry) : Prop := StronglySorted le_e l.

Lemma Forall_remove {A} (P:A -> Prop) l1 e l2 : Forall P (l1 ++ e :: l2) -> P e /\ Forall P (l1 ++ l2).
Proof.
  intros H. apply Forall_app in H. destruct H as [H1 H2]. apply Forall_cons_iff in H2. destruct H2 as [He H2].
  split; [exact He|]. apply Forall_app. split; assumption.
Qed.

Lemma perm_in {A} (l l':list A) : Permutation l l' -> forall x, In x l <-> In x l'.
Proof. intros H x. split; apply Permutation_in; [|symmetry]; exact H. Qed.

Lemma pop_spec d : forall ip idl ip' idl', pop d ip idl = (ip', idl') ->
  exists moved, ip = (moved ++ ip')%list /\ idl' = (idl ++ moved)%list /\
    Forall (fun e => fst e < d) moved /\ (match ip' with [] => True | e :: _ => d <= fst e end).
Proof.
  induction ip as [|e r IH]; intros idl ip' idl' H; cbn in H.
  - injection H as <- <-. exists []. repeat split; rewrite ?app_nil_r; auto; constructor.
  - destruct (fst e <? d) eqn:E.
    + apply IH in H. destruct H as (mv & H1 & H2 & H3 & H4). exists (e :: mv).
      repeat split; [cbn; congruence | rewrite H2, <- app_assoc; reflexivity | constructor; [lia|exact H3] | exact H4].
    + injection H as <- <-. exists []. repeat split; rewrite ?app_nil_r; auto. lia.
Qed.

Lemma pop_sorted {d d' ip idl ip' idl'} :
  sortedE ip -> Forall (fun e => fst e < d) idl -> d <= d' -> pop d' ip idl = (ip', idl') ->
  exists mv, ip = (mv ++ ip')%list /\ idl' = (idl ++ mv)%list /\
    sortedE ip' /\ Forall (fun e => d' <= fst e) ip' /\ Forall (fun e => fst e < d') idl'.
Proof.
  intros Hs Hi Hd P. destruct (pop_spec _ _ _ _ _ P) as (mv & -> & -> & Hmv & Hhd). exists mv.
  apply StronglySorted_app_iff in Hs. destruct Hs as (_ & Hs & _). repeat split; [exact Hs| |].
  - destruct Hs as [|e r _ Hr]; constructor; [exact Hhd|]. eapply Forall_impl; [|exact Hr].
    intros x. apply Z.le_trans, Hhd.
  - apply Forall_app. split; [|exact Hmv]. eapply Forall_impl; [|exact Hi].
    intros x Hx. exact (Z.lt_le_trans _ _ _ Hx Hd).
Qed.

Lemma take_first_some m : forall idl e r, take_first m idl = Some (e, r) ->
  exists l1 l2, idl = (l1 ++ e :: l2)%list /\ r = (l1 ++ l2)%list /\ m (snd e) = true /\
    Forall (fun x => m (snd x) = false) l1.
Proof.
  induction idl as [|x t IH]; intros e r H; cbn in H; [discriminate|].
  destruct (m (snd x)) eqn:E.
  - injection H as <- <-. exists [], t. repeat split; auto.
  - destruct (take_first m t) as [[y r']|]; [|discriminate]. injection H as <- <-.
    destruct (IH y r' eq_refl) as (l1 & l2 & H1 & H2 & H3 & H4).
    exists (x :: l1), l2. repeat split; [cbn; congruence | cbn; congruence | exact H3 | constructor; auto].
Qed.
Lemma take_first_none m : forall idl, take_first m idl = None -> Forall (fun x => m (snd x) = false) idl.
Proof.
  induction idl as [|x t IH]; intros H; cbn in H; [constructor|].
  destruct (m (snd x)) eqn:E; [discriminate|]. destruct (take_first m t) as [[y r']|]; [discriminate|].
  constructor; auto.
Qed.

Lemma ins_insert_by e l : ins e l = insert_by (fun x e => negb (fst e <=? fst x)) e l.
Proof. induction l as [|x r IH]; cbn; [|rewrite IH; destruct (_ <=? _)]; reflexivity. Qed.
Lemma ins_perm e l : Permutation (ins e l) (e :: l).
Proof. rewrite ins_insert_by. apply insert_by_perm. Qed.
Lemma ins_app_perm e l r : Permutation (e :: l ++ r) (ins e l ++ r).
Proof. symmetry. exact (Permutation_app_tail r (ins_perm e l)). Qed.
Lemma ins_sorted e l : sortedE l -> sortedE (ins e l).
Proof.
  rewrite ins_insert_by. apply insert_by_sorted; unfold le_e; lia.
Qed.

Lemma get_bump_same k : forall c n, get k c = Some n -> get k (bump k c) = Some (S n).
Proof. induction c as [|[k' m] r IH]; intros n H; cbn in *; [discriminate|].
  destruct (String.eqb k k') eqn:E; cbn; rewrite E; [congruence| auto]. Qed.
Lemma get_bump_other k k' : k' <> k -> forall c, get k' (bump k c) = get k' c.
Proof. intros Hne. induction c as [|[k2 m] r IH]; cbn; [reflexivity|].
  destruct (String.eqb k k2) eqn:E; cbn.
  - apply String.eqb_eq in E. subst k2. destruct (String.eqb k' k) eqn:E2; [apply String.eqb_eq in E2; congruence|reflexivity].
  - destruct (String.eqb k' k2); [reflexivity|exact IH]. Qed.
Lemma get_bump_le k k' c n : get k' c = Some n -> exists n', get k' (bump k c) = Some n' /\ (n <= n')%nat.
Proof.
  intros H. destruct (String.eqb_spec k' k) as [->|Hne].
  - exists (S n). split; [apply get_bump_same, H|lia].
  - exists n. split; [rewrite get_bump_other; assumption|lia].
Qed.

Definition dep_sorted (ts:list trip) : Prop := StronglySorted (fun a b => dep a <= dep b) ts.

Lemma dep_sorted_lb ts : dep_sorted ts -> exists d, Forall (fun t => d <= dep t) ts.
Proof.
  intros [|t r _ Hr]; [exists 0; constructor|]. exists (dep t). constructor; [lia|exact Hr].
Qed.

Lemma run_gen_cons {stp s t r s' vs} : run_gen stp s (t :: r) = Some (s', vs) ->
  exists s1 v vs', stp s t = Some (s1, v) /\ run_gen stp s1 r = Some (s', vs') /\ vs = v :: vs'.
Proof.
  cbn. destruct (stp s t) as [[s1 v]|]; [|discriminate].
  destruct (run_gen stp s1 r) as [[s2 vs']|] eqn:R; [|discriminate].
  intros [= <- <-]. exists s1, v, vs'. repeat split. exact R.
Qed.

Lemma run_gen_length stp : forall ts s s' vs, run_gen stp s ts = Some (s', vs) -> List.length vs = List.length ts.
Proof.
  induction ts as [|t r IH]; intros s s' vs H.
  - injection H as _ <-. reflexivity.
  - destruct (run_gen_cons H) as (s1 & v & vs' & _ & R & ->). cbn. f_equal. exact (IH _ _ _ R).
Qed.

Section Inv.
Variable st : string -> Z.
Definition busy (t:trip) : Z := arr t + st (ty t).
Definition entries (s:state) : list entry := (inprog s ++ idle s)%list.

Lemma entries_in s m v : In (m,v) (entries s) <-> In (m,v) (inprog s) \/ In (m,v) (idle s).
Proof. apply in_app_iff. Qed.

Lemma step_cases s t s' v : step st s t = Some (s', v) ->
  exists ip idl n, pop (dep t) (inprog s) (idle s) = (ip, idl) /\ get (ty t) (counts s) = Some n /\
    ((exists l1 e l2, idl = (l1 ++ e :: l2)%list /\ fst (snd e) = ty t /\ v = snd e /\
        s' = {| inprog := ins (busy t, v) ip; idle := (l1 ++ l2)%list; counts := counts s |}) \/
     (Forall (fun x => fst (snd x) <> ty t) idl /\ v = (ty t, S n) /\
        s' = {| inprog := ins (busy t, v) ip; idle := idl; counts := bump (ty t) (counts s) |})).
Proof.
  unfold step, step_gen. destruct (pop _ _ _) as [ip idl]. destruct (get _ _) as [n|]; [|discriminate].
  intros H. exists ip, idl, n. split; [reflexivity|]. split; [reflexivity|].
  destruct (take_first _ idl) as [[e r]|] eqn:T; injection H as <- <-.
  - left. destruct (take_first_some _ _ _ _ T) as (l1 & l2 & -> & -> & T3 & _).
    exists l1, e, l2. repeat split. apply String.eqb_eq, T3.
  - right. repeat split. eapply Forall_impl; [|exact (take_first_none _ _ T)].
    intros x Hx. apply String.eqb_neq, Hx.
Qed.

(* Hist l h d: the entries [l] of the vehicles against the list [h] of (trip, vehicle) served so far and the last
   departure [d].  Every vehicle has one entry; it carries the end (arrival + standing time) of one of its trips, and
   the ends of its other trips lie before [d]. *)
Record Hist (l:list entry) (h:list (trip*vid)) (d:Z) : Prop := {
  h_nodup : NoDup (map snd l);
  h_trip  : forall t v, In (t,v) h -> exists m, In (m,v) l /\ (busy t = m \/ busy t < d);
  h_entry : forall m v, In (m,v) l -> exists t, In (t,v) h /\ busy t = m
}.

(* A step replaces the entries [old] of the vehicle it chooses, one if the vehicle was idle and none if it is new,
   by the end of the new trip; the earlier trips of that vehicle ended before the new one departs. *)
Lemma hist_replace l h d t v old rest l' :
  Hist l h d -> d <= dep t -> Permutation l (old ++ rest) -> Permutation ((busy t, v) :: rest) l' ->
  Forall (fun e => snd e = v /\ fst e < dep t) old -> NoDup (v :: map snd rest) ->
  Hist l' (h ++ [(t,v)]) (dep t) /\ forall t0, In (t0,v) h -> busy t0 < dep t.
Proof.
  intros [_ Hh Hl] Hd Hp Hp' Hold Hnd.
  pose proof (perm_in _ _ Hp) as Hin. pose proof (perm_in _ _ Hp') as Hin'.
  (* an earlier trip was served by the chosen vehicle, whose entry is in [old], or its vehicle keeps its entry *)
  assert (K : forall t0 w, In (t0,w) h ->
            w = v /\ busy t0 < dep t \/ exists m, In (m,w) rest /\ (busy t0 = m \/ busy t0 < dep t)).
  { intros t0 w Ht0. destruct (Hh _ _ Ht0) as (m & Hm & Hb). apply Hin, in_app_iff in Hm. destruct Hm as [Hm|Hm].
    - left. rewrite Forall_forall in Hold. destruct (Hold _ Hm) as [Hw Hlt]. cbn in Hw, Hlt. split; [exact Hw|lia].
    - right. exists m. split; [exact Hm|lia]. }
  split; [constructor|].
  - apply (Permutation_NoDup (Permutation_map snd Hp')). exact Hnd.
  - intros t0 w Ht0. apply in_app_iff in Ht0. destruct Ht0 as [Ht0|[[= <- <-]|[]]].
    + destruct (K _ _ Ht0) as [[-> Hlt]|(m & Hm & Hb)].
      * exists (busy t). split; [apply Hin'; left; reflexivity|right; exact Hlt].
      * exists m. split; [apply Hin'; right; exact Hm|exact Hb].
    + exists (busy t). split; [apply Hin'; left; reflexivity|left; reflexivity].
  - intros m w Hm. apply Hin' in Hm. destruct Hm as [[= <- <-]|Hm].
    + exists t. split; [apply in_elt|reflexivity].
    + destruct (Hl m w) as (t0 & Ht0 & Hb); [apply Hin, in_or_app; right; exact Hm|].
      exists t0. split; [apply in_or_app; left; exact Ht0|exact Hb].
  - intros t0 Ht0. destruct (K _ _ Ht0) as [[_ Hlt]|(m & Hm & _)]; [exact Hlt|].
    apply NoDup_cons_iff in Hnd. destruct Hnd as [Hv _]. exfalso. apply Hv. exact (in_map snd _ _ Hm).
Qed.

(* Inv s h d: the two queues have their shape, their entries agree with the history, and no vehicle number exceeds the
   counter of its type, so that a newly numbered vehicle is new *)
Record Inv (s:state) (h:list (trip*vid)) (d:Z) : Prop := {
  i_sorted : sortedE (inprog s);
  i_idle   : Forall (fun e => fst e < d) (idle s);
  i_fresh  : Forall (fun v => exists c, get (fst v) (counts s) = Some c /\ (snd v <= c)%nat) (map snd (entries s));
  i_hist   : Hist (entries s) h d
}.

Lemma inv_init types d : Inv (init types) [] d.
Proof. repeat constructor; contradiction. Qed.

(* what C20 says of the trip [t] that gets vehicle [v] after the history [h] *)
Definition step_facts (h:list (trip*vid)) (t:trip) (v:vid) : Prop :=
  fst v = ty t /\
  (forall t0, In (t0,v) h -> busy t0 < dep t) /\
  ((forall t0, ~ In (t0,v) h) ->                      (* a new vehicle was created ... *)
     forall t0 v0, In (t0,v0) h -> fst v0 = ty t ->   (* ... only if every vehicle of that type *)
       exists t1, In (t1,v0) h /\ dep t <= busy t1).   (*     is still busy at the departure *)

Lemma step_inv s h d t s' v : Inv s h d -> d <= dep t -> step st s t = Some (s', v) ->
  Inv s' (h ++ [(t,v)]) (dep t) /\ step_facts h t v.
Proof.
  intros [Hs Hi Hf HH] Hd H.
  destruct (step_cases s t s' v H) as (ip & idl & n & P & G & C).
  destruct (pop_sorted Hs Hi Hd P) as (mv & E & Ei & Hs' & Hip & Hidl).
  apply (ins_sorted (busy t, v)) in Hs'.
  (* up to order, the entries before the step are the two lists after the first loop *)
  assert (Hp : Permutation (entries s) (ip ++ idl)).
  { unfold entries. rewrite E, Ei, <- app_assoc. apply Permutation_app_rot. }
  pose proof (h_nodup _ _ _ HH) as Hnd. rewrite Hp in Hnd, Hf.
  destruct C as [(l1 & [m0 v0] & l2 & -> & Hty & -> & ->)|(Hno & -> & ->)]; cbn [fst snd] in *.
  - (* an idle vehicle is reused *)
    apply Forall_remove in Hidl. destruct Hidl as [He Hi'].
    assert (Hq : Permutation (ip ++ l1 ++ (m0,v0) :: l2) ((m0,v0) :: ip ++ l1 ++ l2)).
    { rewrite !app_assoc. symmetry. apply Permutation_middle. }
    rewrite Hq in Hp, Hnd, Hf.
    destruct (hist_replace _ _ _ t v0 [(m0,v0)] _ _ HH Hd Hp (ins_app_perm _ _ _)) as [HH' F2].
    { repeat constructor. exact He. }
    { exact Hnd. }
    (* sortedness, the idle bound, the history and two of the step's facts are at hand; left are [i_fresh] and the
       new-vehicle clause, void here since the reused vehicle has a history *)
    split; [constructor|split; [|split]]; try assumption.
    + apply (Permutation_Forall (Permutation_map snd (ins_app_perm _ _ _))). exact Hf.
    + intros Hnew. destruct (h_entry _ _ _ HH m0 v0) as (t0 & Ht0 & _); [|destruct (Hnew t0 Ht0)].
      apply (Permutation_in _ (Permutation_sym Hp)). left. reflexivity.
  - (* a new vehicle is numbered *)
    assert (Hnew : ~ In (ty t, S n) (map snd (ip ++ idl))).
    { intros Hv. rewrite Forall_forall in Hf. destruct (Hf _ Hv) as (c & Hc & Hle). cbn in Hc, Hle.
      rewrite G in Hc. injection Hc as <-. lia. }
    destruct (hist_replace _ _ _ t (ty t, S n) [] _ _ HH Hd Hp (ins_app_perm _ _ _)) as [HH' F2].
    { constructor. }
    { constructor; assumption. }
    (* left: [i_fresh] with the bumped counter, the type of the new vehicle, and the new-vehicle clause *)
    split; [constructor|split; [|split]]; try assumption.
    + apply (Permutation_Forall (Permutation_map snd (ins_app_perm _ _ _))). constructor.
      * exists (S n). split; [apply get_bump_same, G|reflexivity].
      * eapply Forall_impl; [|exact Hf]. intros w (c & Hc & Hle).
        destruct (get_bump_le (ty t) _ _ _ Hc) as (c' & Hc' & Hle'). exists c'. split; [exact Hc'|lia].
    + reflexivity.
    + (* every known vehicle of this type is among [ip]: its entry is the end of a trip, not before the departure *)
      intros _ t0 v0 Ht0 Hty. destruct (h_trip _ _ _ HH _ _ Ht0) as (m & Hm & _).
      destruct (h_entry _ _ _ HH m v0 Hm) as (t1 & Ht1 & Hb). exists t1. split; [exact Ht1|].
      apply (Permutation_in _ Hp), in_app_iff in Hm. destruct Hm as [Hm|Hm].
      * rewrite Forall_forall in Hip. specialize (Hip _ Hm). cbn in Hip. lia.
      * rewrite Forall_forall in Hno. destruct (Hno _ Hm Hty).
Qed.

Lemma run_facts : forall ts s h d s' vs, Inv s h d -> dep_sorted ts -> Forall (fun t => d <= dep t) ts ->
  run_gen (step st) s ts = Some (s', vs) ->
  forall o1 t v o2, combine ts vs = (o1 ++ (t,v) :: o2)%list -> step_facts (h ++ o1) t v.
Proof.
  induction ts as [|t r IH]; intros s h d s' vs I Hs Hd H o1 t' v o2 E.
  - destruct o1; discriminate.
  - destruct (run_gen_cons H) as (s1 & v1 & vs' & S & R & ->).
    apply Forall_cons_iff in Hd. destruct Hd as [Hd _]. apply StronglySorted_inv in Hs. destruct Hs as [Hs1 Hs2].
    destruct (step_inv s h d t s1 v1 I Hd S) as [I1 F]. destruct o1 as [|x o1].
    + injection E as <- <- _. rewrite app_nil_r. exact F.
    + injection E as <- E. specialize (IH _ _ _ _ _ I1 Hs1 Hs2 R _ _ _ _ E). rewrite <- app_assoc in IH. exact IH.
Qed.

Lemma run_from_init types ts s' vs : dep_sorted ts -> run_gen (step st) (init types) ts = Some (s', vs) ->
  forall o1 t v o2, combine ts vs = (o1 ++ (t,v) :: o2)%list -> step_facts o1 t v.
Proof.
  intros Hs H. destruct (dep_sorted_lb ts Hs) as [d Hd].
  exact (run_facts ts _ [] d _ _ (inv_init types d) Hs Hd H).
Qed.
End Inv.

(* The idle list is ordered by the time its vehicles became available: with first-match selection this is the
   "idle longest first" reading of FIFO.  It is an invariant of its own ([J], not a part of [Inv]) because it needs
   non-negative standing times and trips that arrive no earlier than they depart. *)
Section Fifo.
Variable st : string -> Z.
Hypothesis st_nonneg : forall t, 0 <= st t.

(* J s d: rotations in progress end no earlier than the last departure d, idle vehicles became available before d,
   both lists are ordered by availability time *)
Record J (s:state) (d:Z) : Prop := {
  j_ip_sorted : sortedE (inprog s);
  j_ip_lb : Forall (fun e => d <= fst e) (inprog s);
  j_idle_sorted : sortedE (idle s);
  j_idle_ub : Forall (fun e => fst e < d) (idle s) }.

Lemma J_init types d : J (init types) d.
Proof. constructor; constructor. Qed.

Lemma step_J s d t s' v : J s d -> d <= dep t -> dep t <= arr t -> step st s t = Some (s', v) -> J s' (dep t).
Proof.
  intros [Hs Hlb His Hub] Hd Hda H. pose proof (st_nonneg (ty t)) as Hst.
  destruct (step_cases st s t s' v H) as (ip & idl & n & P & _ & C).
  destruct (pop_sorted Hs Hub Hd P) as (mv & E & Ei & Hs' & Hip & Hidl).
  apply (ins_sorted (busy st t, v)) in Hs'.
  assert (Hlb' : Forall (fun e => dep t <= fst e) (ins (busy st t, v) ip)).
  { apply (Permutation_Forall (Permutation_sym (ins_perm _ ip))). constructor; [unfold busy; cbn; lia|exact Hip]. }
  (* the rotations that just ended come sorted, and after the vehicles that were idle already *)
  assert (Hsi : sortedE idl).
  { rewrite E in Hs, Hlb. apply StronglySorted_app_iff in Hs. destruct Hs as (Hmv & _ & _).
    apply Forall_app in Hlb. destruct Hlb as [Hlb _].
    rewrite Ei. apply StronglySorted_app_iff. split; [exact His|]. split; [exact Hmv|]. intros x y Hx Hy.
    rewrite Forall_forall in Hub, Hlb. specialize (Hub x Hx). specialize (Hlb y Hy). unfold le_e. lia. }
  destruct C as [(l1 & e & l2 & -> & _ & _ & ->)|(_ & _ & ->)]; constructor; try assumption.
  - apply StronglySorted_app_iff in Hsi. destruct Hsi as (H1 & H2 & H12).
    apply StronglySorted_inv in H2. apply StronglySorted_app_iff. split; [exact H1|]. split; [tauto|].
    intros x y Hx Hy. apply H12; [exact Hx|right; exact Hy].
  - apply (Forall_remove _ _ _ _ Hidl).
Qed.

Lemma run_J : forall ts s d s' vs, J s d -> dep_sorted ts -> Forall (fun t => d <= dep t) ts ->
  Forall (fun t => dep t <= arr t) ts -> run_gen (step st) s ts = Some (s', vs) -> exists d', J s' d'.
Proof.
  induction ts as [|t ts IH]; intros s d s' vs HJ Hs Hd Ha H.
  - injection H as <- _. exists d. exact HJ.
  - destruct (run_gen_cons H) as (s1 & v & vs' & E & R & _).
    apply Forall_cons_iff in Hd, Ha. apply StronglySorted_inv in Hs.
    destruct Hd as [Hd _], Ha as [Ha Ha'], Hs as [Hs Hs'].
    exact (IH s1 (dep t) s' vs' (step_J s d t s1 v HJ Hd Ha E) Hs Hs' Ha' R).
Qed.
End Fifo.

Lemma sort_trips_perm l : Permutation (sort_trips l) l.
Proof. exact (sort_by_perm _ l). Qed.
Lemma sort_trips_sorted l : dep_sorted (map snd (sort_trips l)).
Proof.
  assert (H : StronglySorted (fun a b => dep (snd a) <= dep (snd b)) (sort_trips l)).
  { apply (sort_by_sorted (fun y x => dep (snd y) <? dep (snd x))); lia. }
  induction H as [|x r _ IH Hx]; constructor; [exact IH|]. apply Forall_map. exact Hx.
Qed.

(* The tables on which the upstream revision violates type purity (D3a) and frugality (D3b); props/C20.v evaluates
   [assign_orig] and [assign] on them. *)
Open Scope string_scope.
Definition st0 (_:string) : Z := 0.
Definition mkt d a t := {| dep := d; arr := a; ty := t |}.
(* D3a: a "bus" trip is served by the idle vehicle "minibus_1" *)
Definition d3a_trips := [mkt 0 10 "minibus"; mkt 100 110 "bus"].
(* D3b: bus_1 (busy until 10) is idle at departure 160, yet a fourth bus is created;
   at departure 150 bus_2 is reused although bus_1 has been idle longer *)
Definition d3b_trips := [mkt 0 10 "bus"; mkt 1 100 "bus"; mkt 2 200 "bus"; mkt 150 300 "bus"; mkt 160 310 "bus"].
