(* StratLocal.v — locality of the per-vehicle step of greedy/balanced (properties C14, C16): a vehicle's step touches
   only its own connector, station and vehicle entry; any number type, no axioms. *)
From Coq Require Import List String.
From SV Require Import Num Strat Dict.

Section Local.
Context {T} {N:Num T}.

(* one vehicle's step: every other connector keeps its loads, limit and cost; every other station keeps its power;
   every other vehicle keeps its battery; the supporting-battery budget of every other connector is unchanged *)
Theorem vehicle_step_local (s:strat) (o:sopts) w cmds avail vid w' cmds' avail' :
  vehicle_step s o (w, cmds, avail) vid = Ok (w', cmds', avail') ->
  exists g0 c0, (forall g, g <> g0 -> Strat.lookup g (sw_gcs w') = Strat.lookup g (sw_gcs w) /\ Strat.lookup g avail' = Strat.lookup g avail) /\
                (forall c, c <> c0 -> Strat.lookup c (sw_css w') = Strat.lookup c (sw_css w) /\ Strat.lookup c cmds' = Strat.lookup c cmds) /\
                (forall v, v <> vid -> Strat.lookup v (sw_veh w') = Strat.lookup v (sw_veh w)) /\
                sw_bats w' = sw_bats w /\ sw_order w' = sw_order w.
Proof.
  unfold vehicle_step. intros H.
  destruct (get vid (sw_veh w)) as [v|]; cbn [bind] in H; [|discriminate].
  destruct (vh_cs v) as [csid|].
  2:{ injection H as <- <- <-. exists EmptyString, EmptyString. repeat split. }
  destruct (get csid (sw_css w)) as [cs|]; cbn [bind] in H; [|discriminate].
  destruct (get (cs_parent cs) (sw_gcs w)) as [g|]; cbn [bind] in H; [|discriminate].
  destruct (cheap o g) as [ch|]; cbn [bind] in H; [|discriminate].
  destruct (get (cs_parent cs) avail) as [av|]; cbn [bind] in H; [|discriminate].
  destruct (vehicle_charge s o v cs _ av ch) as [[[b' avg] used]|]; cbn [bind] in H; [|discriminate].
  destruct (add_load g csid avg) as [g' nv]. injection H as <- <- <-.
  exists (cs_parent cs), csid. cbn [sw_gcs sw_css sw_veh sw_bats sw_order set_gc set_cs set_veh].
  (* every dictionary is changed by one [assign] at the key that is set aside, if at all *)
  repeat split; intros; try reflexivity; try (apply lookup_assign_other; assumption).
  destruct used; [apply lookup_assign_other; assumption|reflexivity].
Qed.
End Local.
