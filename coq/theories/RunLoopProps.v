(* RunLoopProps.v — the run-loop model: structure of a run for any number type (properties C04, C17); on R, sums over
   the load dictionary (for C06) and the safety check as a proposition (C04). *)
From Coq Require Import Reals List Bool Lia Lra.
From SV Require Import Num RNum RunLoop.
Import ListNotations.
Open Scope R_scope.

Section Generic.
Context {T} {N: Num T}.

(* Scenario.run either reports every step, each passing the safety check, or stops at the FIRST step that does
   not pass (an error in event processing or in the strategy counts as not passing) and reports it as its last row *)
Lemma run_spec eps (steps:list (@stepobs T)) :
  (forallb (step_ok eps) steps = true /\ run eps steps = (map mk_row steps, false)) \/
  (exists pre s post, steps = pre ++ s :: post /\ forallb (step_ok eps) pre = true /\ step_ok eps s = false /\
     run eps steps = (map mk_row pre ++ [mk_row s], true)).
Proof.
  induction steps as [|s r IH]; [left; auto|]. cbn [run forallb]. destruct (step_ok eps s) eqn:E.
  - destruct IH as [[H1 H2]|(pre & s' & post & -> & H2 & H3 & H4)]; [left|right].
    + rewrite H2. auto.
    + exists (s :: pre), s', post. cbn [forallb]. rewrite E, H4. auto.
  - right. exists [], s, r. auto.
Qed.

Lemma run_length eps (steps:list (@stepobs T)) : (length (fst (run eps steps)) <= length steps)%nat.
Proof.
  destruct (run_spec eps steps) as [[_ ->]|(pre & s & post & -> & _ & _ & ->)]; cbn [fst].
  - rewrite map_length. lia.
  - rewrite !app_length, map_length. cbn. lia.
Qed.

Lemma aborted_iff eps (steps:list (@stepobs T)) : aborted eps steps = false <-> forallb (step_ok eps) steps = true.
Proof.
  unfold aborted. destruct (run_spec eps steps) as [[H ->]|(pre & s & post & -> & _ & E & ->)]; cbn [snd]; [split; auto|].
  rewrite forallb_app. cbn. rewrite E, andb_false_r. split; discriminate.
Qed.
End Generic.

Lemma nsum_R (l:list R) : @nsum R RNum l = fold_right Rplus 0 l.
Proof. apply nsum_fold_R. Qed.

Definition Rsum (l:list R) : R := fold_right Rplus 0 l.
Lemma Rsum_app a b : Rsum (a ++ b) = Rsum a + Rsum b.
Proof. unfold Rsum. induction a; cbn; lra. Qed.
Lemma Rsum_split (f:@load R -> bool) (l:list (@load R)) :
  Rsum (map l_val l) = Rsum (map l_val (filter f l)) + Rsum (map l_val (filter (fun x => negb (f x)) l)).
Proof. unfold Rsum. induction l as [|x l IH]; cbn; [lra|]. destruct (f x); cbn; lra. Qed.

Definition within (eps:R) (g:@gcobs R) : Prop :=
  - (g_curmax g + eps) <= @gc_load R RNum g <= g_curmax g + eps.
Definition cs_ok (eps:R) (c:@csobs R) : Prop := Rabs (cs_load c) <= cs_max c + eps.
Definition valid (eps:R) (s:@stepobs R) : Prop :=
  s_pre_error s = false /\ s_strat_error s = false /\
  Forall (fun g => within eps g /\ Forall (cs_ok eps) (g_cs g)) (s_gcs s).

Lemma gc_within_iff eps g : @gc_within R RNum eps g = true <-> within eps g.
Proof.
  unfold gc_within, within. cbn [nleb nadd RNum]. rewrite nneg_R, andb_true_iff. split.
  - intros [A B]. apply Rleb_t in A. apply Rleb_t in B. lra.
  - intros [A B]. split; apply Rleb_true; lra.
Qed.
Lemma cs_within_iff eps c : @cs_within R RNum eps c = true <-> cs_ok eps c.
Proof.
  unfold cs_within, cs_ok. rewrite nabs_R. split; [apply Rleb_t|apply Rleb_true].
Qed.
Lemma step_ok_valid eps s : @step_ok R RNum eps s = true <-> valid eps s.
Proof.
  unfold step_ok, valid. rewrite !andb_true_iff, !negb_true_iff, forallb_forall, Forall_forall.
  setoid_rewrite andb_true_iff. setoid_rewrite gc_within_iff.
  setoid_rewrite forallb_forall. setoid_rewrite Forall_forall. setoid_rewrite cs_within_iff. tauto.
Qed.
