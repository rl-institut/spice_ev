(* Dict.v — Python dicts are insertion-ordered association lists: [d[k] = v] is [assign], [d.get(k)] is [lookup].
   Events.v and Strat.v each declare the pair; the two declarations are the same terms, so the lemmas, stated
   for the Events pair, apply to Strat.lookup / Strat.assign as they are. *)
From Coq Require Import List.
From SV Require Import Events.

Lemma lookup_assign_same {A} k (v:A) l : lookup k (assign k v l) = Some v.
Proof. induction l as [|[k' v'] r IH]; cbn; [rewrite String.eqb_refl; reflexivity|].
  destruct (String.eqb k k') eqn:E; cbn; rewrite E; [reflexivity|exact IH]. Qed.

Lemma lookup_assign_other {A} k k' (v:A) l : k' <> k -> lookup k' (assign k v l) = lookup k' l.
Proof.
  intros Hne. apply String.eqb_neq in Hne. induction l as [|[k2 v2] r IH]; cbn; [rewrite Hne; reflexivity|].
  destruct (String.eqb k k2) eqn:E; cbn; [|rewrite IH; reflexivity].
  apply String.eqb_eq in E. subst k2. rewrite Hne. reflexivity.
Qed.

Lemma lookup_map_val {A B} (f:A -> B) k l :
  lookup k (map (fun kv => (fst kv, f (snd kv))) l) = option_map f (lookup k l).
Proof. induction l as [|[k' v] r IH]; cbn; [reflexivity|]. destruct (String.eqb k k'); [reflexivity|exact IH]. Qed.
Lemma assign_map_val {A B} (f:A -> B) k v l :
  assign k (f v) (map (fun kv => (fst kv, f (snd kv))) l) = map (fun kv => (fst kv, f (snd kv))) (assign k v l).
Proof. induction l as [|[k' v'] r IH]; cbn; [reflexivity|]. destruct (String.eqb k k'); [reflexivity|rewrite IH; reflexivity]. Qed.
