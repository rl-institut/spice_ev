(* CostsProps.v — theory of the Costs model on R (property C12): find_prices as one case table, the divisions and
   calculate_feed_in_remuneration evaluated on R (what props/C12.v needs to evaluate the tail [finalize]), sums and
   peaks of a repeated profile. *)
From Coq Require Import Reals List Lia Lra.
From SV Require Import Num RNum Costs.
Import ListNotations.
Open Scope R_scope.

Lemma c100000_R : @c100000 R RNum = 100000. Proof. apply Q2R_Z. Qed.
Lemma c2500_R : @c2500 R RNum = 2500. Proof. apply Q2R_Z. Qed.
Lemma c100_R : @c100 R RNum = 100. Proof. apply Q2R_Z. Qed.
Lemma c3600_R : @c3600 R RNum = 3600. Proof. apply Q2R_Z. Qed.

(* find_prices: SLP iff not forced to RLM and |energy per year| <= 100 000 kWh; RLM prices by the 2500 h/a bracket *)
Lemma find_prices_R (sh:@sheet R) ft util e : @find_prices R RNum sh ft util e =
  if match ft with Some RLM => false | _ => Rleb (Rabs e) 100000 end then (slp_commodity sh, slp_basic sh, SLP)
  else if Rltb util 2500 then (lo_commodity sh, lo_capacity sh, RLM) else (hi_commodity sh, hi_capacity sh, RLM).
Proof.
  unfold find_prices. cbn [nleb nltb RNum]. rewrite nabs_R, c100000_R, c2500_R.
  destruct ft as [[|]|], (Rleb (Rabs e) 100000); reflexivity.
Qed.

Definition sumR (l:list R) : R := fold_left Rplus l 0.
Lemma fold_nadd_R (l:list R) a : fold_left (@nadd R RNum) l a = fold_left Rplus l a.
Proof. reflexivity. Qed.

Lemma Rdivr_100 a : Rdivr a c100 = Ok (a / 100).
Proof. rewrite c100_R. apply Rdivr_ok. lra. Qed.

(* calculate_feed_in_remuneration *)
Lemma feed_in_R charge l secs fy : fy <> 0 ->
  @feed_in R RNum charge l secs fy =
  let e := (match l with Some x => @nsum R RNum x | None => 0 end) * secs / 3600 in
  Ok (e / fy * charge / 100, e * charge / 100).
Proof.
  intros Hfy. unfold feed_in. rewrite c3600_R, Rdivr_ok by lra. cbn [bind]. rewrite (Rdivr_ok _ fy Hfy). cbn [bind].
  rewrite !Rdivr_100. rewrite ?zero_0. reflexivity.
Qed.

Fixpoint rep {A} (k:nat) (l:list A) : list A := match k with O => [] | S k' => l ++ rep k' l end.

Lemma nsum_R (l:list R) : @nsum R RNum l = fold_right Rplus 0 l.
Proof. apply nsum_fold_R. Qed.
Lemma nsum_app (a b:list R) : @nsum R RNum (a ++ b) = @nsum R RNum a + @nsum R RNum b.
Proof. rewrite !nsum_R. induction a; cbn; lra. Qed.
Lemma nsum_rep k (l:list R) : @nsum R RNum (rep k l) = INR k * @nsum R RNum l.
Proof. induction k as [|k IH]; [cbn [rep]; rewrite nsum_R; cbn; lra|].
  cbn [rep]. rewrite nsum_app, S_INR. lra. Qed.

(* max(l + [0]) is the largest non-negative element: unchanged by repetition *)
Definition maxR0 (l:list R) : R := fold_right Rmax 0 l.
Lemma fold_right_max_init : forall (l:list R) m x, fold_right Rmax (Rmax m x) l = Rmax x (fold_right Rmax m l).
Proof. induction l as [|y l IH]; intros m x; cbn; [apply Rmax_comm|]. rewrite IH. unfold Rmax; repeat destruct Rle_dec; lra. Qed.
Lemma maxl0_R (l:list R) : @maxl0 R RNum l = maxR0 l.
Proof.
  assert (A : forall (l:list R) m, fold_left (fun m x => @nmax R RNum m x) l m = fold_right Rmax m l).
  { clear l. induction l as [|x l IH]; intros m; cbn; [reflexivity|]. rewrite IH, nmax_R, fold_right_max_init. reflexivity. }
  unfold maxl0, maxR0. rewrite A, zero_0, fold_right_app. cbn [fold_right]. rewrite Rmax_left by lra. reflexivity.
Qed.
Lemma maxR0_nonneg l : 0 <= maxR0 l.
Proof. induction l as [|x l IH]; cbn; [lra|]. eapply Rle_trans; [exact IH|apply Rmax_r]. Qed.
Lemma maxR0_app a b : maxR0 (a ++ b) = Rmax (maxR0 a) (maxR0 b).
Proof.
  induction a as [|x a IH].
  - symmetry. apply Rmax_right. apply maxR0_nonneg.
  - change (maxR0 ((x :: a) ++ b)) with (Rmax x (maxR0 (a ++ b))).
    rewrite IH. apply Rmax_assoc.
Qed.
Lemma maxR0_rep k l : (0 < k)%nat -> maxR0 (rep k l) = maxR0 l.
Proof.
  induction k as [|k IH]; [lia|]. intros _. cbn [rep]. rewrite maxR0_app. destruct k as [|k'].
  - apply Rmax_left. apply maxR0_nonneg.
  - rewrite IH by lia. apply Rmax_left. lra.
Qed.
