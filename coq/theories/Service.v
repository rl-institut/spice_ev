(* Service.v — planning arithmetic of the greedy and balanced strategies (property C09) and the
   individual-schedule command (property C11). *)
From Coq Require Import ZArith Reals Lia Lra.
From SV Require Import RNum Kernel.

(* remaining steps: -(dt // -interval) is the ceiling of dt/interval *)
Open Scope Z_scope.
Definition steps_left (dt interval:Z) : Z := - (dt / - interval).
Lemma steps_left_ceil dt i : 0 < i -> (steps_left dt i - 1) * i < dt <= steps_left dt i * i.
Proof.
  intros Hi. unfold steps_left. Z.div_mod_to_equations. nia.
Qed.
Close Scope Z_scope.

Open Scope R_scope.
(* greedy: energy_needed = delta*capacity/efficiency, power_needed = energy_needed * ts_per_hour; a battery that takes
   average power p for one step of `hours` gains p*efficiency*hours/capacity — the request aims exactly at the desired SoC *)
Lemma greedy_request_hits_desired soc desired cap eff tsph hours :
  0 < cap -> 0 < eff -> tsph * hours = 1 ->
  let pn := (desired - soc) * cap / eff * tsph in
  soc + pn * eff * hours / cap = desired.
Proof.
  intros Hc He Ht pn. unfold pn.
  replace (soc + (desired - soc) * cap / eff * tsph * eff * hours / cap) with (soc + (desired - soc) * (tsph * hours)) by (field; split; lra).
  rewrite Ht. ring.
Qed.

Fixpoint iter (f:R->R) (n:nat) (s:R) : R := match n with O => s | S k => iter f k (f s) end.

(* individual schedule: min(clamp_power(schedule + additional), connector head room) *)
Notation Rclamp := (@clamp_power R RNum).
Definition indiv_command (sched add cur mx mn vm left:R) : R := Rmin (Rclamp (sched + add) cur mx mn vm) left.
