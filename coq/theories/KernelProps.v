(* KernelProps.v — theorems about the kernels on R (properties C05, C06, C04/C07 limit rule). *)
From Coq Require Import Qreals Reals List Lra.
From SV Require Import Num RNum Kernel.
Open Scope R_scope.

Notation Rclamp := (@clamp_power R RNum).

Lemma clamp_unfold p cur mx mn vm : Rclamp p cur mx mn vm =
  if (Rltb (Rmin (cur + p) mx) mn || Rltb (Rmin (cur + p) mx) vm)%bool then 0 else Rmax (Rmin p (mx - cur)) 0.
Proof. unfold clamp_power. rewrite !nmin_R, nmax_R, zero_0. reflexivity. Qed.

Lemma clamp_nonneg p cur mx mn vm : 0 <= Rclamp p cur mx mn vm.
Proof. rewrite clamp_unfold. destruct (_ || _)%bool; [lra|apply Rmax_r]. Qed.

Lemma clamp_le_headroom p cur mx mn vm : Rclamp p cur mx mn vm <= Rmax (mx - cur) 0.
Proof. rewrite clamp_unfold. destruct (_ || _)%bool; [apply Rmax_r|]. apply Rle_max_compat_r, Rmin_r. Qed.

Lemma clamp_le_pos_part p cur mx mn vm : Rclamp p cur mx mn vm <= Rmax p 0.
Proof. rewrite clamp_unfold. destruct (_ || _)%bool; [apply Rmax_r|]. apply Rle_max_compat_r, Rmin_l. Qed.

Lemma clamp_le_power p cur mx mn vm : 0 <= p -> Rclamp p cur mx mn vm <= p.
Proof. intros Hp. eapply Rle_trans; [apply clamp_le_pos_part|apply Req_le, Rmax_left, Hp]. Qed.

(* a positive result keeps the station at or above both minimum powers, and within its maximum *)
Lemma clamp_positive_respects_min p cur mx mn vm : 0 < Rclamp p cur mx mn vm ->
  mn <= cur + Rclamp p cur mx mn vm /\ vm <= cur + Rclamp p cur mx mn vm /\ cur + Rclamp p cur mx mn vm <= mx.
Proof.
  rewrite clamp_unfold. destruct (_ || _)%bool eqn:E; [lra|]. apply orb_false_iff in E. destruct E as [E1 E2].
  apply Rltb_f in E1. apply Rltb_f in E2. intros Hpos.
  assert (Hr : Rmax (Rmin p (mx - cur)) 0 = Rmin p (mx - cur)).
  { apply Rmax_left. unfold Rmax in Hpos. destruct (Rle_dec (Rmin p (mx - cur)) 0); lra. }
  assert (cur + Rmin p (mx - cur) = Rmin (cur + p) mx).
  { unfold Rmin. destruct (Rle_dec p (mx - cur)), (Rle_dec (cur + p) mx); lra. }
  pose proof (Rmin_r (cur + p) mx). lra.
Qed.

Lemma clamp_mono p1 p2 cur mx mn vm : p1 <= p2 -> Rclamp p1 cur mx mn vm <= Rclamp p2 cur mx mn vm.
Proof.
  intros H. rewrite !clamp_unfold.
  assert (Ht : Rmin (cur + p1) mx <= Rmin (cur + p2) mx) by (apply Rle_min_compat_r; lra).
  destruct (Rltb (Rmin (cur + p1) mx) mn || Rltb (Rmin (cur + p1) mx) vm)%bool eqn:E1.
  - destruct (Rltb (Rmin (cur + p2) mx) mn || Rltb (Rmin (cur + p2) mx) vm)%bool; [lra|apply Rmax_r].
  - apply orb_false_iff in E1. destruct E1 as [A B]. apply Rltb_f in A. apply Rltb_f in B.
    rewrite (Rltb_false (Rmin (cur + p2) mx) mn), (Rltb_false (Rmin (cur + p2) mx) vm) by lra.
    apply Rle_max_compat_r. apply Rle_min_compat_r. exact H.
Qed.

Lemma clamp_within_max p cur mx mn vm : cur <= mx -> cur + Rclamp p cur mx mn vm <= mx.
Proof. intros H. pose proof (clamp_le_headroom p cur mx mn vm) as Hh. rewrite Rmax_left in Hh by lra. lra. Qed.

Notation Rlosses := (@apply_losses R RNum).
Lemma losses_spec soc cap rel fr fa : cap <> 0 ->
  Rlosses soc cap rel fr fa = Ok (Rmax (soc * (1 - rel / 100) - fr / 100 - fa / cap) 0).
Proof.
  intros Hc. unfold apply_losses, hundred. cbn [ndiv nofQ nmul nsub RNum bind].
  rewrite (Q2R_Z 100). rewrite !Rdivr_ok by (lra || exact Hc). cbn [bind].
  rewrite nmax_R, one_1, zero_0. reflexivity.
Qed.
(* self-discharge only lowers the SoC and never takes it below zero *)
Lemma losses_bounds soc cap rel fr fa s' : 0 < cap -> 0 <= soc -> 0 <= rel -> 0 <= fr -> 0 <= fa ->
  Rlosses soc cap rel fr fa = Ok s' -> 0 <= s' <= soc.
Proof.
  intros Hc Hs Hr Hf Ha H. rewrite losses_spec in H by lra. injection H as <-. split; [apply Rmax_r|].
  apply Rmax_lub; [|exact Hs].
  assert (0 <= fa / cap) by (apply Rmult_le_pos; [lra|left; apply Rinv_0_lt_compat; lra]).
  assert (soc * (1 - rel / 100) <= soc) by nra. lra.
Qed.

(* GridOperatorSignal: the current limit never exceeds the rating *)
Lemma apply_limit_le_rating (rating:R) cur ev : rating <> 0 ->
  (match cur with Some c => c <= rating | None => True end) ->
  match @apply_limit R RNum rating cur ev with Some c => c <= rating | None => cur = None /\ ev = None end.
Proof.
  intros Hr Hc. unfold apply_limit. rewrite zero_0, Reqb_false by exact Hr.
  destruct ev as [m|]; [rewrite nmin_R; apply Rmin_l|]. destruct cur; auto.
Qed.
