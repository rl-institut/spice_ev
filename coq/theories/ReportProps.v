(* ReportProps.v — split_feedin on R (property C18). *)
From Coq Require Import Reals Lra.
From SV Require Import Num RNum Report.
Open Scope R_scope.
Lemma split_unfold g ge cs : @split_feedin R RNum g ge cs =
  let gen := Rmax (Rmin (- ge) g) 0 in let v2g := Rmax (Rmin (- cs) (g - gen)) 0 in (gen, v2g, Rmax (g - gen - v2g) 0).
Proof. unfold split_feedin. rewrite !nmax_R, !nmin_R, !nneg_R, zero_0. reflexivity. Qed.

(* a share min(a, rest) of the feed-in clipped at 0 is the share of the clipped feed-in; what is left of a feed-in g
   after a share x of its positive part *)
Lemma clip_min a g : 0 <= a -> Rmax (Rmin a g) 0 = Rmin a (Rmax g 0).
Proof. intros H. unfold Rmax, Rmin. repeat destruct Rle_dec; lra. Qed.
Lemma clip_rest g x : 0 <= x <= Rmax g 0 -> Rmax (g - x) 0 = Rmax g 0 - x.
Proof. unfold Rmax. repeat destruct Rle_dec; lra. Qed.

(* non-negative parts, in the priority generation > V2G > battery, summing to the total feed-in *)
Lemma split_spec g ge cs : ge <= 0 -> cs <= 0 ->
  let '(gen, v2g, bat) := @split_feedin R RNum g ge cs in
  0 <= gen /\ 0 <= v2g /\ 0 <= bat /\ gen + v2g + bat = Rmax g 0 /\
  gen = Rmin (- ge) (Rmax g 0) /\ v2g = Rmin (- cs) (Rmax g 0 - gen) /\ bat = Rmax g 0 - gen - v2g.
Proof.
  intros Hg Hc. rewrite split_unfold. cbv zeta. set (M := Rmax g 0). assert (0 <= M) by apply Rmax_r.
  rewrite (clip_min (- ge)) by lra. fold M. set (gen := Rmin (- ge) M).
  assert (0 <= gen <= M) by (split; [apply Rmin_glb; lra|apply Rmin_r]).
  rewrite (clip_min (- cs)), (clip_rest g gen) by (assumption || lra). fold M. set (v2g := Rmin (- cs) (M - gen)).
  assert (0 <= v2g <= M - gen) by (split; [apply Rmin_glb; lra|apply Rmin_r]).
  replace (g - gen - v2g) with (g - (gen + v2g)) by ring. rewrite clip_rest by (fold M; lra). fold M.
  lra.
Qed.
(* without the sign assumptions the parts are still non-negative *)
Lemma split_nonneg g ge cs : let '(gen, v2g, bat) := @split_feedin R RNum g ge cs in 0 <= gen /\ 0 <= v2g /\ 0 <= bat.
Proof. rewrite split_unfold. repeat split; apply Rmax_r. Qed.
