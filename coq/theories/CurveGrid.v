(* CurveGrid.v — exhaustive finite sweep of lookup/clamped on a rational grid (executable Q instance), lifted to a
   universally quantified statement by forallb_forall and by three lemmas (post-scale, maximum, locality: see "The
   sweep" below).  The bound of the grid is part of the theorem.  It checks again, on the instance that is run against
   /repo, against a specification written independently and without the axioms of the reals, what CurveProps.v proves
   for all curves on R. *)
From Coq Require Import ZArith QArith Qminmax List Bool Lia.
From SV Require Import Num Curve Sorting.
Import ListNotations.
Open Scope Q_scope.

(* the instance with an empty exp/ln table: curve code calls neither *)
Definition N0 := QNum0.
(* independent spec: first pair of neighbours enclosing s, linear interpolation *)
Fixpoint spec_lerp (l:list (Q*Q)) (s:Q) : option Q := match l with
  | p :: ((q :: _) as r) =>
      if Qle_bool (fst p) s && Qle_bool s (fst q)
      then Some (snd p + (snd q - snd p) * ((s - fst p) / (fst q - fst p)))
      else spec_lerp r s
  | _ => None end.

Definition interiors : list (list Q) := [[]; [1#4]; [1#2]; [3#4]; [1#4;1#2]; [1#4;3#4]; [1#2;3#4]].
Definition powers : list Q := [0; 5; 10; 20].
Definition limits : list Q := [0; 4; 5; 8; 10; 25].
Definition scales : list Q := [1#2; 1; 2].
Definition probes : list Q := map (fun k => inject_Z k / 16) [0;1;2;3;4;5;6;7;8;9;10;11;12;13;14;15;16]%Z.

Fixpoint assignments (xs:list Q) : list (list (Q*Q)) := match xs with
  | [] => [[]]
  | x :: r => flat_map (fun tl => map (fun y => (x,y) :: tl) powers) (assignments r) end.
Definition grid_curves : list (list (Q*Q)) :=
  flat_map (fun mid => assignments (0 :: mid ++ [1])) interiors.

Definition grid_params : list (Q*Q*Q) :=
  flat_map (fun lim => flat_map (fun pre => map (fun post => (lim,pre,post)) scales) scales) limits.

(* a successful result equal to a defined specification *)
Definition eqo (a:res Q) (b:option Q) : bool := match a,b with Ok x, Some y => Qeq_bool x y | _,_ => false end.

(* lookup = interpolation at all probes, max_power = the largest power; [l] is meant to be in SoC order, as every curve
   of the grid is: [spec_lerp] does not sort *)
Definition check_lookup (l:list (Q*Q)) : bool := match @mk_curve Q N0 l with
  | Ok c => forallb (fun s => eqo (@power_from_soc Q N0 c s) (spec_lerp l s)) probes
            && Qeq_bool (maxp c) (fold_right (fun p m => Qmax (snd p) m) 0 l)
  | Err _ => false end.

(* clamped = post * min (pre * curve, limit) at all probes and at the result's own points, and its max_power the
   largest power *)
Definition check_clamp (l:list (Q*Q)) (prm:Q*Q*Q) : bool :=
  let '(lim,pre,post) := prm in
  match @mk_curve Q N0 l with
  | Ok c => match @clamped Q N0 c lim pre post with
     | Ok c' => forallb (fun s => match spec_lerp l s with
                          | Some v => eqo (@power_from_soc Q N0 c' s) (Some (post * Qmin (pre * v) lim))
                          | None => false end) (probes ++ map fst (pts c'))
                && Qeq_bool (maxp c') (fold_right (fun p m => Qmax (snd p) m) 0 (pts c'))
     | Err _ => false end
  | Err _ => false end.

(* The sweep.  Evaluating [check_clamp] for all 976 curves x 54 triples is slow to check (the independent checker
   re-runs it without the VM), so three things are proved and not evaluated.
   - The post-scale only multiplies the powers, so it commutes with the constructor's sort and with the lookup
     (qsortpts_scale, qpfs_pts_scale): the lookups are looked at on the clamped points before post-scaling.
   - max_power is the maximum of the points for every list (maxp_fold).
   - Clamping and lookup are local.  [clamp_secs] emits the points of the sections one after the other, and a lookup to
     the right of the first point sees only the section that holds the SoC and the first point after it ([walk], and
     [lookup_walk] for the lookup without clamping).  The 976 curves are made of 160 sections.
   What is left to evaluation ([grid_ok]) is said at [sec_ok] and [sec_limpre], once per section, and at
   [check_limpre] and [check_curve], once per curve.
   The specification side computes with the operations of Q, the model side with those of the instance, which reduce
   after every step; the two meet at [Qeq_bool].  [nleb], [nltb], [neqb], [one], [zero] of the instance are
   [Qle_bool], its negation, [Qeq_bool], 1 and 0 by conversion, which several steps below rely on. *)
#[local] Existing Instance N0.
Notation scale := (@scale_pts Q N0).
Notation qpt := (Q*Q)%type.
Definition sc (k:Q) (p:qpt) : qpt := (fst p, nmul k (snd p)).

(* [sortpts] is [Sorting.sort_by] with the test "earlier SoC is smaller", by conversion *)
Lemma qsortpts_scale k l : sortpts (scale k l) = scale k (sortpts l).
Proof. apply (sort_by_map (sc k) (fun q p => nltb (fst q) (fst p))). reflexivity. Qed.

(* [r'] is [r] scaled by k, up to the representation of the rational *)
Definition scaled (k:Q) (r r':res Q) : Prop := match r, r' with
  | Ok v, Ok v' => v' == k * v | Err e, Err e' => e = e' | _, _ => False end.
Lemma qpfs_from_scale k s : forall l prev,
  scaled k (pfs_from prev l s) (pfs_from (sc k prev) (scale k l) s).
Proof.
  induction l as [|p l IH]; intros prev; cbn [pfs_from scale_pts map sc fst snd]; [reflexivity|].
  destruct (nleb s (fst p)); [|apply (IH p)].
  destruct (ndiv _ _) as [t|e]; cbn [bind scaled]; [|reflexivity].
  cbn [nadd nsub nmul N0 QNum0 QNum]. rewrite !Qred_correct. ring.
Qed.
Lemma qpfs_pts_scale k s l : scaled k (pfs_pts l s) (pfs_pts (scale k l) s).
Proof.
  destruct l as [|p l]; cbn [pfs_pts scale_pts map fst snd]; [reflexivity|].
  destruct (nleb s (fst p)); [|apply qpfs_from_scale]. cbn [scaled nmul N0 QNum0 QNum]. apply Qred_correct.
Qed.

(* the constructor on post-scaled points: its two asserts only look at the SoCs *)
Lemma qlast_scale k : forall l d, fst (last (scale k l) (sc k d)) = fst (last l d).
Proof. induction l as [|p [|q l] IH]; intros d; [reflexivity..|]. exact (IH d). Qed.
Lemma qmk_curve_ok np b0 B : sortpts np = b0 :: B ->
  neqb (fst b0) zero = true -> neqb (fst (last (b0 :: B) b0)) one = true ->
  mk_curve np = Ok {| pts := b0 :: B; maxp := fold_left (fun acc p => nmax (snd p) acc) (b0 :: B) zero |}.
Proof. intros E H0 H1. unfold mk_curve. rewrite E, H0, H1. reflexivity. Qed.
Lemma qmk_curve_scale k np b0 B : sortpts np = b0 :: B ->
  neqb (fst b0) zero = true -> neqb (fst (last (b0 :: B) b0)) one = true ->
  mk_curve (scale k np) =
  Ok {| pts := scale k (b0 :: B); maxp := fold_left (fun acc p => nmax (snd p) acc) (scale k (b0 :: B)) zero |}.
Proof.
  intros E H0 H1. apply (qmk_curve_ok _ (sc k b0) (scale k B)); [rewrite qsortpts_scale, E; reflexivity|exact H0|].
  rewrite <- H1. exact (f_equal (fun x => neqb x one) (qlast_scale k (b0 :: B) b0)).
Qed.

(* what [check_clamp] asks at SoC s, before post-scaling: [P] are the sorted clamped points, [o] the specification;
   [power_from_soc] asserts s <= 1 *)
Definition base_ok (lim pre:Q) (P:list qpt) (s:Q) (o:option Q) : bool := match o with
  | Some v => negb (nltb one s) && eqo (pfs_pts P s) (Some (Qmin (pre * v) lim)) | None => false end.
Lemma base_ok_post lim pre post P m s o : base_ok lim pre P s o = true ->
  match o with
  | Some v => eqo (power_from_soc {| pts := scale post P; maxp := m |} s) (Some (post * Qmin (pre * v) lim))
  | None => false end = true.
Proof.
  destruct o as [v|]; [|discriminate]. unfold base_ok. rewrite andb_true_iff, negb_true_iff. intros [H1 H2].
  unfold power_from_soc. rewrite H1. cbn [pts]. pose proof (qpfs_pts_scale post s P) as S.
  destruct (pfs_pts P s) as [vP|]; [|discriminate]. destruct (pfs_pts (scale post P) s) as [v'|]; [|destruct S].
  cbn [eqo scaled] in *. apply Qeq_bool_iff in H2. apply Qeq_bool_iff. rewrite S, H2. reflexivity.
Qed.

Lemma nmax_Qmax a b : nmax a b = Qmax a b.
Proof.
  unfold nmax, Qmax, GenericMinMax.gmax. cbn [nltb N0 QNum0 QNum].
  destruct (Qcompare_spec a b) as [C|C|C], (Qle_bool b a) eqn:E; try reflexivity; exfalso.
  - rewrite <- not_true_iff_false, Qle_bool_iff, C in E. exact (E (Qle_refl b)).
  - apply Qle_bool_iff in E. exact (Qlt_not_le _ _ C E).
  - apply Qlt_le_weak, Qle_bool_iff in C. congruence.
Qed.
Lemma maxp_fold (P:list qpt) : forall a,
  fold_left (fun acc p => nmax (snd p) acc) P a == fold_right (fun p m => Qmax (snd p) m) a P.
Proof.
  induction P as [|p P IH]; intros a; cbn [fold_left fold_right]; [reflexivity|]. rewrite IH, nmax_Qmax. clear IH.
  induction P as [|q P IH]; cbn [fold_right]; [reflexivity|]. rewrite IH, !Q.max_assoc, (Q.max_comm (snd q)). reflexivity.
Qed.

(* The lookup walks the list up to the first point at or above the SoC: what comes after that point plays no role, and
   neither do points below the SoC that are followed by another point below it. *)
Lemma qpfs_from_stop s e : nleb s (fst e) = true -> forall A prev B,
  pfs_from prev (A ++ e :: B) s = pfs_from prev (A ++ [e]) s.
Proof.
  intros He. induction A as [|a A IH]; intros prev B; cbn [app pfs_from]; [rewrite He; reflexivity|].
  destruct (nleb s (fst a)); [reflexivity|apply IH].
Qed.
Lemma qpfs_pts_stop s e A B : nleb s (fst e) = true -> pfs_pts (A ++ e :: B) s = pfs_pts (A ++ [e]) s.
Proof.
  intros He. destruct A as [|a A]; cbn [app pfs_pts]; [rewrite He; reflexivity|].
  destruct (nleb s (fst a)); [reflexivity|apply qpfs_from_stop, He].
Qed.
Lemma qpfs_from_skip s e B : nleb s (fst e) = false -> forall A prev, Forall (fun x => nleb s (fst x) = false) A ->
  pfs_from prev (A ++ e :: B) s = pfs_from e B s.
Proof.
  intros He. induction A as [|a A IH]; intros prev HA; cbn [app pfs_from]; [rewrite He; reflexivity|].
  inversion HA as [|? ? Ha HA']; subst. rewrite Ha. apply IH, HA'.
Qed.
Lemma qpfs_pts_skip s e A B : nleb s (fst e) = false -> Forall (fun x => nleb s (fst x) = false) A ->
  pfs_pts (A ++ e :: B) s = pfs_pts (e :: B) s.
Proof.
  intros He HA. cbn [pfs_pts]. rewrite He. destruct A as [|a A]; cbn [app pfs_pts]; [rewrite He; reflexivity|].
  inversion HA as [|? ? Ha HA']; subst. rewrite Ha. apply qpfs_from_skip; assumption.
Qed.

(* the order facts the walk needs, on the booleans of the executable instance *)
Lemma nleb_false_le s a : nleb s a = false -> Qle_bool a s = true.
Proof. intros H. apply Qle_bool_iff, Qlt_le_weak, Qnot_le_lt. intros L. apply Qle_bool_iff in L. cbn in H. congruence. Qed.
Lemma nleb_eq s {a b} : a == b -> nleb s a = nleb s b.
Proof. intros E. cbn [nleb N0 QNum0 QNum]. apply eq_iff_eq_true. rewrite !Qle_bool_iff, E. reflexivity. Qed.
Lemma nleb_trans_false s x e : nleb x e = true -> nleb s e = false -> nleb s x = false.
Proof.
  intros H1 H2. destruct (nleb s x) eqn:E; [|reflexivity]. cbn [nleb N0 QNum0 QNum] in *.
  apply Qle_bool_iff in H1, E. pose proof (proj2 (Qle_bool_iff _ _) (Qle_trans _ _ _ E H1)). congruence.
Qed.

(* syntactic equality of points, decided: the points of a curve are looked up among those of the grid by evaluation *)
Definition pt_eq_dec : forall a b:qpt, {a = b} + {a <> b}.
Proof. repeat decide equality. Defined.

Definition qlerp (p q:qpt) (s:Q) : Q := snd p + (snd q - snd p) * ((s - fst p) / (fst q - fst p)).
Fixpoint pairs (l:list qpt) : list (qpt*qpt) := match l with
  | p :: ((q :: _) as r) => (p,q) :: pairs r | _ => [] end.
(* every point and every section of every curve of the grid *)
Definition gpts : list qpt := list_prod [0; 1#4; 1#2; 3#4; 1] powers.
Definition table : list (qpt*qpt) :=
  filter (fun pq => negb (nleb (fst (snd pq)) (fst (fst pq)))) (list_prod gpts gpts).
Lemma pairs_in : forall l p q, In (p,q) (pairs l) -> In p l /\ In q l.
Proof.
  induction l as [|a [|b r] IH]; intros p q H; [destruct H..|]. destruct H as [[= <- <-]|H]; [cbn; auto|].
  destruct (IH p q H). split; right; assumption.
Qed.

(* The point [clamp_sec] emits first for a section that starts at p', up to the far end of the section: both
   candidates when the power of p' == lim, where they may differ as terms.  And the points that can follow a section
   ending at q': the first of the next section, or the closing point, whose SoC [clamp_secs] writes as [one] and which
   therefore is a candidate only where the SoC of q' == one. *)
Definition heads (lim:Q) (p':qpt) : list qpt :=
  (if nleb (snd p') lim then [(fst p', snd p')] else []) ++ (if nleb lim (snd p') then [(fst p', lim)] else []).
Definition nexts (lim:Q) (q':qpt) : list qpt :=
  heads lim q' ++ (if neqb (fst q') one then [(one, nmin lim (snd q'))] else []).
Lemma nexts_fst lim q' e : In e (nexts lim q') -> fst e == fst q'.
Proof.
  unfold nexts, heads. rewrite !in_app_iff. intros [[H|H]|H].
  - destruct (nleb _ lim); [destruct H as [<-|[]]; reflexivity|destruct H].
  - destruct (nleb lim _); [destruct H as [<-|[]]; reflexivity|destruct H].
  - destruct (neqb (fst q') one) eqn:E; [|destruct H]. destruct H as [<-|[]]. symmetry. apply Qeq_bool_iff, E.
Qed.

(* One section [p,q], one (limit, pre-scale) pair.  Which point follows the section depends on the next section, not
   known here, so every candidate e is tried: the points of the section lie at or before e, and the lookup on them and
   e is the clamped interpolant at the probes inside (p,q] ([tab], with their specification, built once per section)
   and at the points after the first, e included: a section answers for the first point of the next one, and nobody
   but [check_limpre] for the first point of the curve.  That [clamp_sec] emits a point at all (its last branch
   returns none) is seen by evaluation too. *)
Definition sec_limpre (p q:qpt) (tab:list (Q*Q)) (lim pre:Q) : bool :=
  match clamp_sec lim (sc pre p) (sc pre q) with
  | Ok (h :: t) => (if in_dec pt_eq_dec h (heads lim (sc pre p)) then true else false) &&
      forallb (fun e =>
        let local s v := eqo (pfs_pts ((h :: t) ++ [e]) s) (Some (Qmin (pre * v) lim)) in
        forallb (fun x => nleb (fst x) (fst e)) (h :: t)
        && forallb (fun sv => local (fst sv) (snd sv)) tab
        && forallb (fun s => negb (nleb s (fst p)) && nleb s (fst e) && nleb s one && local s (qlerp p q s))
                   (map fst (t ++ [e])))
        (nexts lim (sc pre q))
  | _ => false end.
Definition sec_tab (p q:qpt) : list (Q*Q) :=
  map (fun s => (s, qlerp p q s)) (filter (fun s => negb (nleb s (fst p)) && nleb s (fst q)) probes).
(* one section: the lookup on its two points is the interpolant at the probes inside, and [sec_limpre] holds for every
   (limit, pre-scale) pair *)
Definition sec_ok (p q:qpt) : bool :=
  let tab := sec_tab p q in
  forallb (fun sv => eqo (pfs_pts [p; q] (fst sv)) (Some (snd sv))) tab
  && forallb (fun lim => forallb (sec_limpre p q tab lim) scales) limits.

Lemma sec_ok_spec p q : sec_ok p q = true ->
  forallb (fun sv => eqo (pfs_pts [p; q] (fst sv)) (Some (snd sv))) (sec_tab p q) = true /\
  forall lim pre, In lim limits -> In pre scales -> sec_limpre p q (sec_tab p q) lim pre = true.
Proof.
  unfold sec_ok. cbv zeta. rewrite andb_true_iff. intros [H1 H2]. split; [exact H1|]. intros lim pre Hl Hp.
  rewrite forallb_forall in H2. specialize (H2 lim Hl). rewrite forallb_forall in H2. exact (H2 pre Hp).
Qed.
Lemma probes_le_one : forallb (fun s => nleb s one) probes = true.
Proof. reflexivity. Qed.
Lemma spec_lerp_cons p q r s : spec_lerp (p :: q :: r) s =
  if Qle_bool (fst p) s && Qle_bool s (fst q) then Some (qlerp p q s) else spec_lerp (q :: r) s.
Proof. reflexivity. Qed.
Lemma clamp_secs_scale_cons lim pre p q r : clamp_secs lim (scale pre (p :: q :: r)) =
  let! hd := clamp_sec lim (sc pre p) (sc pre q) in let! tl := clamp_secs lim (scale pre (q :: r)) in Ok (hd ++ tl).
Proof. reflexivity. Qed.

(* One section [p,q] with clamped points [A] followed by [e], whose SoC is that of q: a lookup inside (p,q] only sees
   [A] and [e]; a lookup right of q skips [A], which lies at or before e. *)
Lemma sec_here {lim pre p q r A e B s} : fst e == fst q -> nleb s (fst p) = false -> nleb s (fst e) = true ->
  nleb s one = true -> eqo (pfs_pts (A ++ [e]) s) (Some (Qmin (pre * qlerp p q s) lim)) = true ->
  base_ok lim pre (A ++ e :: B) s (spec_lerp (p :: q :: r) s) = true.
Proof.
  intros Efst Hp Ee H1 Hl. rewrite spec_lerp_cons, (nleb_false_le _ _ Hp).
  pose proof Ee as Eq. rewrite (nleb_eq s Efst) in Eq. cbn [nleb N0 QNum0 QNum] in Eq. rewrite Eq. cbn [andb base_ok].
  change (nltb one s) with (negb (nleb s one)). rewrite H1, qpfs_pts_stop by exact Ee. exact Hl.
Qed.
Lemma sec_right {lim pre p q r A e B s} : fst e == fst q -> forallb (fun x => nleb (fst x) (fst e)) A = true ->
  nleb s (fst q) = false -> base_ok lim pre (e :: B) s (spec_lerp (q :: r) s) = true ->
  base_ok lim pre (A ++ e :: B) s (spec_lerp (p :: q :: r) s) = true.
Proof.
  intros Efst Hx Eq Hok. rewrite spec_lerp_cons. pose proof Eq as Eq'. cbn [nleb N0 QNum0 QNum] in Eq'.
  rewrite Eq', andb_false_r. rewrite <- (nleb_eq s Efst) in Eq. unfold base_ok in Hok |- *.
  destruct (spec_lerp (q :: r) s); [|exact Hok]. rewrite qpfs_pts_skip; [exact Hok|exact Eq|].
  rewrite forallb_forall in Hx. apply Forall_forall. intros x Hxin. exact (nleb_trans_false s _ _ (Hx x Hxin) Eq).
Qed.

(* the lookup without clamping: to the right of the first point it is a lookup in one section *)
Lemma lookup_walk : (forall p q, In (p,q) table ->
    forallb (fun sv => eqo (pfs_pts [p; q] (fst sv)) (Some (snd sv))) (sec_tab p q) = true) ->
  forall d l p, incl (pairs (p :: l)) table -> neqb (fst (last (p :: l) d)) one = true ->
  forall s, In s probes -> nleb s (fst p) = false -> eqo (pfs_pts (p :: l) s) (spec_lerp (p :: l) s) = true.
Proof.
  intros Htbl d. induction l as [|q r IH]; intros p Hin Hlast s Hs Hp.
  - exfalso. pose proof (proj1 (forallb_forall _ _) probes_le_one s Hs) as H1. cbn [last] in Hlast.
    rewrite (nleb_eq s (proj1 (Qeq_bool_iff _ _) Hlast)) in Hp. congruence.
  - rewrite spec_lerp_cons, (nleb_false_le _ _ Hp). change (p :: q :: r) with ([p] ++ q :: r).
    destruct (nleb s (fst q)) eqn:Eq; pose proof Eq as Eq'; cbn [nleb N0 QNum0 QNum] in Eq'; rewrite Eq'.
    + rewrite (qpfs_pts_stop s q [p] r Eq). assert (Hpq : In (p,q) table) by (apply Hin; left; reflexivity).
      apply (proj1 (forallb_forall _ _) (Htbl p q Hpq) (s, qlerp p q s)), (in_map (fun s => (s, qlerp p q s))), filter_In.
      split; [exact Hs|]. rewrite Hp, Eq. reflexivity.
    + rewrite andb_false_r, (qpfs_pts_skip s q [p] r Eq) by (constructor; [exact Hp|constructor]).
      apply IH; [intros x Hx; apply Hin; right; exact Hx|exact Hlast|exact Hs|exact Eq].
Qed.

(* By induction from the closing point leftwards: the clamped points [np] of [l] begin with a point that can follow
   the section before [l], and [check_clamp]'s question has the right answer at every probe to the right of the first
   point of [l] and at every point of [np] after the first; that these points lie to the right of the first point
   of [l] is carried along for the step. *)
Lemma walk lim pre d : (forall p q, In (p,q) table -> sec_limpre p q (sec_tab p q) lim pre = true) ->
  forallb (fun s => nleb s one) probes = true ->
  forall l np, incl (pairs l) table -> neqb (fst (last l d)) one = true ->
  clamp_secs lim (scale pre l) = Ok np ->
  exists e tl, np = e :: tl /\ In e (nexts lim (sc pre (hd (0,0) l))) /\
    (forall s, In s probes -> nleb s (fst (hd (0,0) l)) = false -> base_ok lim pre np s (spec_lerp l s) = true) /\
    (forall s, In s (map fst tl) -> nleb s (fst (hd (0,0) l)) = false /\ base_ok lim pre np s (spec_lerp l s) = true).
Proof.
  intros Htbl Hpr. induction l as [|p [|q r] IH]; intros np Hin Hlast H; [discriminate| |].
  - (* the closing point: no probe lies to its right *)
    injection H as <-. cbn [last hd] in *. eexists _, []. split; [reflexivity|]. split; [|split; [|intros s []]].
    + unfold nexts. cbn [sc fst]. rewrite Hlast. apply in_or_app. right. left. reflexivity.
    + intros s Hs Hp. exfalso. rewrite forallb_forall in Hpr. specialize (Hpr s Hs).
      rewrite (nleb_eq s (proj1 (Qeq_bool_iff _ _) Hlast)) in Hp. congruence.
  - rewrite clamp_secs_scale_cons in H.
    assert (Hpq : In (p,q) table) by (apply Hin; left; reflexivity).
    (* the table only holds sections with the SoC of p below that of q *)
    pose proof (proj2 (proj1 (filter_In _ _ _) Hpq)) as Hlt. cbn [fst snd] in Hlt. apply negb_true_iff in Hlt.
    pose proof (Htbl p q Hpq) as Hsec. unfold sec_limpre in Hsec.
    destruct (clamp_sec lim (sc pre p) (sc pre q)) as [[|h t]|]; [discriminate| |discriminate].
    destruct (clamp_secs lim (scale pre (q :: r))) as [tl|] eqn:Etl; [|discriminate]. injection H as <-.
    apply andb_true_iff in Hsec. destruct Hsec as [Hh Hall]. destruct (in_dec _ h _) as [Hh'|]; [clear Hh|discriminate].
    destruct (IH tl) as (e & tl' & -> & He & Hprobe & Hown);
      [intros x Hx; apply Hin; right; exact Hx|exact Hlast|reflexivity|].
    cbn [hd] in *. rewrite forallb_forall in Hall. specialize (Hall e He). cbv zeta in Hall.
    rewrite !andb_true_iff in Hall. destruct Hall as [[Hx Hloc] Hlown].
    pose proof (nexts_fst lim (sc pre q) e He) as Efst. cbn [sc fst] in Efst.
    change (h :: t ++ e :: tl') with ((h :: t) ++ e :: tl').
    exists h, (t ++ e :: tl'). split; [reflexivity|]. split; [apply in_or_app; left; exact Hh'|]. split.
    + intros s Hs Hp. destruct (nleb s (fst e)) eqn:Ee.
      * rewrite forallb_forall in Hloc, Hpr. apply (sec_here Efst Hp Ee (Hpr s Hs)).
        apply (Hloc (s, qlerp p q s)), (in_map (fun s => (s, qlerp p q s))), filter_In. split; [exact Hs|].
        rewrite Hp, <- (nleb_eq s Efst), Ee. reflexivity.
      * rewrite (nleb_eq s Efst) in Ee. exact (sec_right Efst Hx Ee (Hprobe s Hs Ee)).
    + intros s Hs. change (t ++ e :: tl') with (t ++ [e] ++ tl') in Hs. rewrite app_assoc, map_app, in_app_iff in Hs.
      destruct Hs as [Hs|Hs].
      * rewrite forallb_forall in Hlown. specialize (Hlown s Hs). rewrite !andb_true_iff, negb_true_iff in Hlown.
        destruct Hlown as [[[Hp Ee] H1] Hl]. split; [exact Hp|exact (sec_here Efst Hp Ee H1 Hl)].
      * destruct (Hown s Hs) as [Eq Hok]. split; [|exact (sec_right Efst Hx Eq Hok)].
        exact (nleb_trans_false s _ _ (nleb_false_le _ _ Hlt) Eq).
Qed.

(* one curve, one (limit, pre-scale) pair: clamping gives an ordered list from 0 to 1, with the right answer at the
   probes at or left of the first point ([left], with their specification) and at the first clamped point; everything
   to the right is [walk]'s *)
Definition check_limpre (l:list qpt) (left:list (Q * option Q)) (lim pre:Q) : bool :=
  match clamp_secs lim (scale pre l) with
  | Ok (b0 :: B) => let np := b0 :: B in
      in_order (fun q p => nltb (fst q) (fst p)) np
      && neqb (fst b0) zero && neqb (fst (last np b0)) one
      && forallb (fun sv => base_ok lim pre np (fst sv) (snd sv)) left
      && base_ok lim pre np (fst b0) (spec_lerp l (fst b0))
  | _ => false end.
(* one curve: points of the grid in rising SoC order from 0 to 1 (so its sections are in the table), the lookup right at
   the probes not right of the first point, and [check_limpre] for every (limit, pre-scale) pair *)
Definition check_curve (l:list qpt) : bool :=
  match l with [] | [_] => false | p0 :: _ =>
    let left := map (fun s => (s, spec_lerp l s)) (filter (fun s => nleb s (fst p0)) probes) in
    in_order (fun q p => nltb (fst q) (fst p)) l && neqb (fst p0) zero && neqb (fst (last l p0)) one
    && forallb (fun p => if in_dec pt_eq_dec p gpts then true else false) l
    && forallb (fun pq => negb (nleb (fst (snd pq)) (fst (fst pq)))) (pairs l)
    && forallb (fun sv => eqo (pfs_pts l (fst sv)) (snd sv)) left
    && forallb (fun lim => forallb (check_limpre l left lim) scales) limits end.
Definition grid_ok : bool := forallb (fun pq => sec_ok (fst pq) (snd pq)) table && forallb check_curve grid_curves.

(* for every post-scale, not only the three of the grid *)
Lemma grid_ok_sound l lim pre post : grid_ok = true -> In l grid_curves -> In lim limits -> In pre scales ->
  check_lookup l = true /\ check_clamp l (lim, pre, post) = true.
Proof.
  (* taken apart by hand: [rewrite !forallb_forall] here spends a minute unifying against the closed grid *)
  unfold grid_ok. intros H Hl Hlim Hpre. apply andb_true_iff in H. destruct H as [HT HC].
  pose proof (proj1 (forallb_forall _ _) HC l Hl) as H. clear HC Hl. unfold check_curve in H.
  destruct l as [|p0 [|q r]]; [discriminate|discriminate|]. cbv zeta in H.
  rewrite !andb_true_iff in H. destruct H as [[[[[[Ho L0] L1] Hg] Hlt] HL0] H2].
  assert (Hin' : incl (pairs (p0 :: q :: r)) table).
  { intros [p' q'] Hx. apply filter_In. split; [|exact (proj1 (forallb_forall _ _) Hlt _ Hx)].
    destruct (pairs_in _ _ _ Hx) as [H1 H2']. rewrite forallb_forall in Hg. apply in_prod.
    - specialize (Hg _ H1). destruct (in_dec _ p' gpts); [assumption|discriminate].
    - specialize (Hg _ H2'). destruct (in_dec _ q' gpts); [assumption|discriminate]. }
  (* a probe not right of the first point is in the table [left] *)
  assert (Hleft : forall s, In s probes -> nleb s (fst p0) = true -> In (s, spec_lerp (p0 :: q :: r) s)
            (map (fun s => (s, spec_lerp (p0 :: q :: r) s)) (filter (fun s => nleb s (fst p0)) probes))).
  { intros s Hs E0. apply (in_map (fun s => (s, spec_lerp (p0 :: q :: r) s))), filter_In. split; assumption. }
  assert (HT' : forall p' q', In (p', q') table -> sec_ok p' q' = true).
  { intros p' q' Hpq. exact (proj1 (forallb_forall _ _) HT _ Hpq). }
  (* the constructor leaves the list as it is *)
  pose proof (qmk_curve_ok _ p0 (q :: r) (sort_by_in_order _ _ Ho) L0 L1) as Emk.
  unfold check_lookup, check_clamp. rewrite Emk. cbn [pts maxp]. split.
  - rewrite (proj2 (Qeq_bool_iff _ _) (maxp_fold _ _)), andb_true_r. apply forallb_forall. intros s Hs.
    unfold power_from_soc. cbn [pts]. change (nltb one s) with (negb (nleb s one)).
    rewrite (proj1 (forallb_forall _ _) probes_le_one s Hs). cbn [negb].
    destruct (nleb s (fst p0)) eqn:E0; [exact (proj1 (forallb_forall _ _) HL0 _ (Hleft s Hs E0))|].
    apply (lookup_walk) with (d := p0); [intros p' q' Hpq; exact (proj1 (sec_ok_spec _ _ (HT' _ _ Hpq)))|exact Hin'|exact L1|exact Hs|exact E0].
  - rewrite forallb_forall in H2. specialize (H2 lim Hlim). rewrite forallb_forall in H2. specialize (H2 pre Hpre).
    unfold check_limpre in H2. unfold clamped. cbn [pts].
    destruct (clamp_secs lim (scale pre (p0 :: q :: r))) as [[|b0 B]|] eqn:Enp; [discriminate| |discriminate].
    cbn [bind].
    rewrite !andb_true_iff in H2. destruct H2 as [[[[Hs T0] T1] HP0] HO0].
    rewrite (qmk_curve_scale post _ b0 B (sort_by_in_order _ _ Hs) T0 T1). cbn [pts maxp].
    rewrite (proj2 (Qeq_bool_iff _ _) (maxp_fold _ _)), andb_true_r.
    destruct (walk lim pre p0) with (l := p0 :: q :: r) (np := b0 :: B) as (e & tl & [= <- <-] & _ & Hw & Hwo);
      [| exact probes_le_one | exact Hin' | exact L1 | exact Enp |].
    { intros p' q' Hpq. exact (proj2 (sec_ok_spec _ _ (HT' _ _ Hpq)) lim pre Hlim Hpre). }
    rewrite forallb_app, andb_true_iff. rewrite forallb_forall in HP0.
    split; apply forallb_forall; intros s Hs'; apply base_ok_post.
    + destruct (nleb s (fst p0)) eqn:E0; [exact (HP0 _ (Hleft s Hs' E0))|exact (Hw s Hs' E0)].
    + (* the SoCs of the post-scaled points are those of the points, by conversion *)
      unfold scale_pts in Hs'. rewrite map_map in Hs'. destruct Hs' as [<-|Hs']; [exact HO0|exact (proj2 (Hwo s Hs'))].
Qed.

(* [vm_cast_no_check]: the evaluation runs once, at Qed *)
Lemma grid_ok_true : grid_ok = true.
Proof. vm_cast_no_check (eq_refl true). Qed.

Lemma grid_size : (length grid_curves = 976)%nat /\ (length grid_params = 54)%nat.
Proof. vm_compute. split; reflexivity. Qed.

(* The pinned upstream revision of clamped() (defect D1) violates the pointwise law:
   curve [[0,11],[1,11]], limit 11, pre-scale 1/2, evaluated at SoC 1. *)
Definition d1_curve : list (Q*Q) := [(0,11);(1,11)].
Definition violates (cl : @curve Q -> Q -> Q -> Q -> res (@curve Q)) : bool :=
  match @mk_curve Q N0 d1_curve with
  | Ok c => match cl c 11 (1#2) 1, spec_lerp d1_curve 1 with
            | Ok c', Some v0 => match @power_from_soc Q N0 c' 1 with
                                | Ok v => negb (Qeq_bool v (1 * Qmin ((1#2) * v0) 11))
                                | Err _ => false end
            | _, _ => false end
  | Err _ => false end.
(* the repaired clamped() satisfies the law on the input on which props/C03.v refutes the upstream one *)
Lemma clamped_fixed_witness : violates (@clamped Q N0) = false.
Proof. vm_cast_no_check (eq_refl false). Qed.
