(* StratSum.v — the connector total as a sum over the load dictionary, R instance (property C06: booking a load
   changes the total by exactly the booked power). *)
From Coq Require Import Reals List Lra String.
From SV Require Import Num RNum Strat.
Import ListNotations.
Open Scope R_scope.

Definition sumloads (l:list (string*R)) : R := fold_right (fun kv a => snd kv + a) 0 l.

Lemma current_load_sum (g:@gcon R) : @current_load R RNum g = sumloads (gc_loads g).
Proof.
  assert (A : forall (l:list (string*R)) a, fold_left (fun a kv => @nadd R RNum a (snd kv)) l a = a + sumloads l).
  { unfold sumloads. induction l as [|kv l IH]; intros a; cbn [fold_left fold_right]; [lra|]. rewrite IH. cbn [nadd RNum]. lra. }
  unfold current_load. rewrite A, zero_0. lra.
Qed.

(* dict semantics: keys are unique *)
Fixpoint nodup_keys (l:list (string*R)) : Prop := match l with
  | [] => True | (k,_)::r => Strat.lookup k r = None /\ nodup_keys r end.

(* d[k] = v replaces the old value of k, if any, in the sum *)
Lemma sum_assign k v (l:list (string*R)) :
  sumloads (Strat.assign k v l) = sumloads l - match Strat.lookup k l with Some old => old | None => 0 end + v.
Proof.
  unfold sumloads. induction l as [|[k2 v2] r IH]; cbn; [lra|]. destruct (String.eqb k k2); cbn; lra.
Qed.
