(* TransferK.v — Q -> R transfer for the kernels of Kernel.v (clamp_power, get_cost, apply_battery_losses,
   the GridOperatorSignal limit rule). *)
From Coq Require Import Qreals Reals List.
From Param Require Import Param.
From SV Require Import Num RNum Transfer Kernel.

Parametricity Recursive clamp_power.
Parametricity Recursive cost.
Parametricity Recursive get_cost.
Parametricity Recursive apply_losses.
Parametricity Recursive apply_limit.

(* The abstraction theorems speak of [RNumT tbl], the statements of [RNum]: [exact] accepts this because the two
   instances of each function are convertible, i.e. the function uses neither exp nor ln (checked, not claimed). *)
Theorem clamp_power_transfer tbl p cur mx mn vm :
  Q2R (@clamp_power Q (QNum tbl) p cur mx mn vm) = @clamp_power R RNum (Q2R p) (Q2R cur) (Q2R mx) (Q2R mn) (Q2R vm).
Proof. exact (clamp_power_R Q R QR _ _ (QNum_RNumT tbl) p _ eq_refl cur _ eq_refl mx _ eq_refl mn _ eq_refl vm _ eq_refl). Qed.

Definition cost_Q2R (c:@cost Q) : @cost R := match c with
  | CFixed v => CFixed (Q2R v) | CPoly cs => CPoly (map Q2R cs) | CNone => CNone end.
Lemma cost_QR c : cost_R Q R QR c (cost_Q2R c).
Proof. destruct c; constructor; [reflexivity|apply list_R_map; reflexivity]. Qed.
Theorem get_cost_transfer tbl x c :
  @get_cost R RNum (Q2R x) (cost_Q2R c) = mapres Q2R (@get_cost Q (QNum tbl) x c).
Proof. apply res_QR_map.
  exact (get_cost_R Q R QR _ _ (QNum_RNumT tbl) x _ eq_refl c _ (cost_QR c)). Qed.

Theorem apply_losses_transfer tbl soc cap rel fr fa :
  @apply_losses R RNum (Q2R soc) (Q2R cap) (Q2R rel) (Q2R fr) (Q2R fa) = mapres Q2R (@apply_losses Q (QNum tbl) soc cap rel fr fa).
Proof. apply res_QR_map.
  exact (apply_losses_R Q R QR _ _ (QNum_RNumT tbl) soc _ eq_refl cap _ eq_refl rel _ eq_refl fr _ eq_refl fa _ eq_refl). Qed.

Theorem apply_limit_transfer tbl rating cur ev :
  @apply_limit R RNum (Q2R rating) (option_map Q2R cur) (option_map Q2R ev) = option_map Q2R (@apply_limit Q (QNum tbl) rating cur ev).
Proof. apply option_QR_inv.
  exact (apply_limit_R Q R QR _ _ (QNum_RNumT tbl) rating _ eq_refl cur _ (option_QR cur) ev _ (option_QR ev)). Qed.
