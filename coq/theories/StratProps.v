(* StratProps.v — the power a vehicle's decision asks for, greedy and balanced (property C10), R instance. *)
From Coq Require Import Reals Lra.
From SV Require Import RNum Kernel KernelProps Strat.
Open Scope R_scope.

Definition clampv (v:@veh R) (cs:@cstation R) (p:R) : R := @clamp_power R RNum p (cs_cur cs) (cs_maxp cs) (cs_minp cs) (vh_minp v).

(* both strategies ask for clamp_power(min(need, left)), [need] what the vehicle needs in this step (balanced: its share
   of it) and [left] what the connector has left (greedy: plus the supporting battery power): non-negative, within the
   station's remaining rating, never more than needed, and never more than a non-negative rest *)
Lemma clampv_min_bounds v cs need left : 0 <= need ->
  let p := clampv v cs (Rmin need left) in
  0 <= p /\ p <= Rmax (cs_maxp cs - cs_cur cs) 0 /\ p <= need /\ (0 <= left -> p <= left).
Proof.
  intros Hn p. unfold p, clampv. split; [apply clamp_nonneg|]. split; [apply clamp_le_headroom|]. split.
  - eapply Rle_trans; [apply clamp_le_pos_part|]. apply Rmax_lub; [apply Rmin_l|exact Hn].
  - intros Hl. eapply Rle_trans; [apply clamp_le_pos_part|]. apply Rmax_lub; [apply Rmin_r|exact Hl].
Qed.
