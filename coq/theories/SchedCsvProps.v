(* SchedCsvProps.v — theory for property C13 (axiom-free): which times the events of the schedule reader carry,
   and what a reader of the event list sees. *)
From Coq Require Import QArith List Lia.
From SV Require Import SchedCsv.
Import ListNotations.
Open Scope Z_scope.

(* no generated signal takes effect before it is sent *)
Definition ev_ok (e:sev) : Prop := match e with SGc st sg _ _ => sg <= st | SVeh st sg _ _ => sg <= st end.
Definition ev_start (e:sev) : Z := match e with SGc st _ _ _ => st | SVeh st _ _ _ => st end.
Definition ev_signal (e:sev) : Z := match e with SGc _ sg _ _ => sg | SVeh _ sg _ _ => sg end.
Definition is_veh (e:sev) : Prop := match e with SVeh _ _ _ _ => True | SGc _ _ _ _ => False end.

(* the per-vehicle loop emits vehicle events only, all stamped with the row's times *)
Lemma veh_events_times st sg : forall vals i last,
  Forall (fun e => is_veh e /\ ev_start e = st /\ ev_signal e = sg) (fst (veh_events st sg i vals last)).
Proof.
  induction vals as [|v vs IH]; intros i last; cbn; [constructor|]. destruct last as [|l ls]; [constructor|].
  specialize (IH (S i) ls). destruct (veh_events st sg (S i) vs ls) as [evs ls'].
  destruct (match l with Some y => Qeq_bool v y | None => false end); cbn; [exact IH|].
  constructor; [cbn; auto|exact IH].
Qed.

(* One row of the reader.  Its events are the connector event, if target or window changed, and then the vehicle
   events; the assertion "starts before being sent" (the [None] result) passes if the row emits nothing or is signalled
   no later than it starts. *)
Lemma rows_events_cons {start0 r rest lt lw lv evs} : rows_events start0 (r :: rest) lt lw lv = Some evs ->
  let sg := Z.max start0 (r_sigcand r) in
  exists changed vevs lv' tl,
    changed = negb (eqoq (Some (r_target r)) lt) || negb (match lw with Some w => eqow (r_window r) w | None => false end) /\
    Forall (fun e => is_veh e /\ ev_start e = r_start r /\ ev_signal e = sg) vevs /\
    (changed = false /\ vevs = [] \/ sg <= r_start r) /\
    rows_events start0 rest (if changed then Some (r_target r) else lt) (if changed then Some (r_window r) else lw) lv' = Some tl /\
    evs = ((if changed then [SGc (r_start r) sg (r_target r) (r_window r)] else []) ++ vevs ++ tl)%list.
Proof.
  cbn [rows_events]. pose proof (veh_events_times (r_start r) (Z.max start0 (r_sigcand r)) (r_veh r) 0%nat lv) as HV.
  destruct (veh_events _ _ 0 (r_veh r) lv) as [vevs lv'].
  destruct ((_ || _) && (r_start r <? _)) eqn:E; [discriminate|].
  destruct (rows_events start0 rest _ _ lv') as [tl|] eqn:ER; [|discriminate]. intros [= <-].
  eexists _, vevs, lv', tl. split; [reflexivity|]. split; [exact HV|]. split; [|split; [exact ER|reflexivity]].
  apply andb_false_iff in E. rewrite orb_false_iff, Z.ltb_ge in E. destruct E as [[E1 Ev]|E]; [left|right; exact E].
  split; [exact E1|]. destruct vevs; [reflexivity|discriminate Ev].
Qed.

Lemma rows_events_times start0 : forall rows lt lw lv evs, rows_events start0 rows lt lw lv = Some evs ->
  Forall (fun e => exists r, In r rows /\ ev_start e = r_start r /\ ev_signal e = Z.max start0 (r_sigcand r) /\
                             ev_signal e <= ev_start e) evs.
Proof.
  induction rows as [|r rest IH]; intros lt lw lv evs H; [injection H as <-; constructor|].
  destruct (rows_events_cons H) as (changed & vevs & lv' & tl & _ & HV & Hsent & ER & ->).
  apply Forall_app; split; [|apply Forall_app; split].
  - destruct changed; [|constructor]. destruct Hsent as [[[=] _]|Hsent].
    repeat constructor. exists r. cbn. auto.
  - destruct Hsent as [[_ ->]|Hsent]; [constructor|]. eapply Forall_impl; [|exact HV].
    intros e (_ & -> & ->). exists r. cbn. auto.
  - eapply Forall_impl; [|exact (IH _ _ _ _ ER)]. intros e (r' & Hr & He). exists r'. cbn. auto.
Qed.

Lemma rows_events_ok start0 rows lt lw lv evs : rows_events start0 rows lt lw lv = Some evs -> Forall ev_ok evs.
Proof.
  intros H. eapply Forall_impl; [|exact (rows_events_times _ _ _ _ _ _ H)]. intros [] (_ & _ & _ & _ & Hle); exact Hle.
Qed.

Definition oqeq (a b:option Q) : Prop := match a, b with Some x, Some y => Qeq x y | None, None => True | _, _ => False end.
Lemma eqoq_iff a b : eqoq a b = true <-> oqeq a b.
Proof. destruct a, b; cbn; try tauto; try (split; [discriminate|tauto]). apply Qeq_bool_iff. Qed.
Lemma oqeq_trans a b c : oqeq a b -> oqeq b c -> oqeq a c.
Proof. destruct a, b, c; cbn; try tauto. apply Qeq_trans. Qed.
Lemma oqeq_sym a b : oqeq a b -> oqeq b a.
Proof. destruct a, b; try tauto. apply Qeq_sym. Qed.

Lemma target_at_app a b t cur : target_at (a ++ b) t cur = target_at b t (target_at a t cur).
Proof. revert cur. induction a as [|e a IH]; intros cur; cbn; [reflexivity|]. destruct e; [destruct (_ <=? t)|]; apply IH. Qed.
(* events that start later, and vehicle events, do not change the target a reader sees *)
Lemma target_at_skip evs t cur : Forall (fun e => t < ev_start e \/ is_veh e) evs -> target_at evs t cur = cur.
Proof.
  revert cur. induction evs as [|e r IH]; intros cur H; cbn; [reflexivity|]. inversion H as [|? ? He Hr]; subst.
  destruct e; cbn in He; [rewrite (proj2 (Z.leb_gt _ _)) by tauto|]; apply IH, Hr.
Qed.

Fixpoint increasing (rows:list row) : Prop := match rows with
  | r :: ((r' :: _) as rest) => r_start r < r_start r' /\ increasing rest | _ => True end.
Lemma increasing_later r rest : increasing (r :: rest) -> Forall (fun x => r_start r < r_start x) rest /\ increasing rest.
Proof.
  revert r. induction rest as [|r' rest IH]; intros r H; [split; [constructor|exact I]|]. destruct H as [H1 H2].
  split; [|exact H2]. constructor; [exact H1|]. eapply Forall_impl; [|apply (IH r' H2)]. cbn. lia.
Qed.

(* The pinned upstream revision (D4): a vehicle schedule that changes while the connector target stays the
   same is stamped with the start time of the LAST connector change, i.e. it takes effect too early. *)
Definition d4_rows : list row :=
  [ {| r_start := 0; r_sigcand := -100; r_target := 5; r_window := None; r_veh := [1%Q] |};
    {| r_start := 10; r_sigcand := -90; r_target := 5; r_window := None; r_veh := [2%Q] |} ].
