(* GenProps.v — theory of the generator models on R (property C19): one invariant of the daily trip loop of the
   statistics generator, one of the per-vehicle loop of the trip-table generator, and the table's sort. *)
From Coq Require Import Reals List Bool Lia Lra Sorted.
From SV Require Import Num RNum Gen Sorting.
Import ListNotations.
Open Scope R_scope.

Notation Rgev := (gev R).

(* head_ok: the newest arrival either still carries the placeholder (no later trip seen yet) or
   announces a departure strictly after the arrival, with a desired SoC of at least the minimum *)
Definition head_ok (m:R) (a:Z) (etd:option Z) (ds:R) : Prop :=
  (etd = None /\ ds = 0) \/ (exists d', etd = Some d' /\ (a < d')%Z /\ m <= ds).

(* well-formed event list of one vehicle, newest first: (departure, arrival) pairs; a departure announces
   exactly the following arrival and is not after it; an arrival that is followed by a trip announces exactly
   that trip's departure, lies strictly before it, and its desired SoC is at least the minimum and covers the
   trip's consumption times (1 + buffer) *)
Inductive swf (m b1:R) : list Rgev -> Prop :=
| swf_nil : swf m b1 []
| swf_first a etd ds sd d : (d <= a)%Z -> head_ok m a etd ds -> swf m b1 [GArr a etd ds sd; GDep d a]
| swf_more a etd ds sd d a0 ds0 sd0 rest : (d <= a)%Z -> head_ok m a etd ds ->
    (a0 < d)%Z -> m <= ds0 -> (- sd) * b1 <= ds0 ->
    swf m b1 (GArr a0 (Some d) ds0 sd0 :: rest) ->
    swf m b1 (GArr a etd ds sd :: GDep d a :: GArr a0 (Some d) ds0 sd0 :: rest).

(* the vehicle's initial announcement: whenever it has events, the first one is a departure at exactly the
   initially announced departure time, and the initial desired SoC is at least the minimum *)
Definition sinit_ok (m:R) (s:sstate R) : Prop := match st_rev s with [] => True | _ =>
  exists d eta x, last (st_rev s) (GDep 0 0) = GDep d eta /\ st_etd s = Some d /\ st_dsoc s = Some x /\ m <= x end.

Lemma swf_rehead m b1 a etd ds sd rest etd' ds' : swf m b1 (GArr a etd ds sd :: rest) -> head_ok m a etd' ds' ->
  swf m b1 (GArr a etd' ds' sd :: rest).
Proof. intros Hw Hh. inversion Hw; [apply swf_first|apply swf_more]; assumption. Qed.

Lemma stat_append_wf m b1 days tr (s:sstate R) :
  (0 <= s_dur tr)%Z ->
  (st_rev s = [] \/ exists a ds sd rest, st_rev s = GArr a (Some (s_dep tr)) ds sd :: rest /\ (a < s_dep tr)%Z /\ m <= ds /\ s_sd tr * b1 <= ds) ->
  swf m b1 (st_rev s) -> swf m b1 (st_rev (stat_append days tr s)).
Proof.
  intros Hd Hs Hw. unfold stat_append. destruct (days <=? s_day tr)%nat; [exact Hw|]. cbn [st_rev].
  assert (Hh : head_ok m (s_dep tr + s_dur tr) None zero) by (left; split; [reflexivity|apply zero_0]).
  destruct Hs as [E|(a & ds & sd & rest & E & Ha & Hm & Hc)]; rewrite E in *.
  - apply swf_first; [lia|exact Hh].
  - apply swf_more; try assumption; try lia. rewrite nneg_R. lra.
Qed.

Lemma py_or_ge m (o:option R) des : m <= des -> (match o with Some x => m <= x | None => True end) -> m <= @py_or R RNum o des.
Proof. intros Hd Ho. unfold py_or. destruct o as [x|]; [|exact Hd]. cbn [neqb RNum]. destruct (Reqb x zero); assumption. Qed.

(* both facts about the statistics generator are one invariant of the daily trip loop *)
Definition stat_inv (m b1:R) (s:sstate R) : Prop := swf m b1 (st_rev s) /\ sinit_ok m s.

Lemma stat_step_inv m buf days (s:sstate R) tr : (0 <= s_dur tr)%Z ->
  stat_inv m (1 + buf) s -> stat_inv m (1 + buf) (stat_step m buf days s tr).
Proof.
  intros Hd [Hw Hi]. unfold stat_step.
  set (des := @nmax R RNum m (nmul (s_sd tr) (nadd one buf))).
  assert (Hdes : m <= des /\ s_sd tr * (1 + buf) <= des).
  { unfold des. rewrite nmax_R. rewrite one_1. split; [apply Rmax_l|apply Rmax_r]. }
  destruct Hdes as [Hm Hc]. unfold sinit_ok in Hi.
  destruct (st_rev s) as [|[t eta|a etd ds sd] rest].
  - (* first trip: it sets the initial announcement *)
    split; [apply stat_append_wf; [exact Hd|left; reflexivity|constructor]|].
    unfold stat_append, sinit_ok. destruct (days <=? s_day tr)%nat; cbn [st_rev st_etd st_dsoc]; [exact I|].
    eexists _, _, _. repeat split. exact Hm.
  - inversion Hw.
  - destruct Hi as (d & eta & x & Hl & He & Hx & Hmx).
    assert (Hpo : m <= @py_or R RNum (st_dsoc s) des) by (apply py_or_ge; [exact Hm|rewrite Hx; exact Hmx]).
    (* the oldest event is a departure, so the list is longer than its head *)
    destruct rest as [|y r']; [discriminate Hl|].
    destruct (a >=? s_dep tr)%Z eqn:Ea.
    + (* overlapping trip: discarded *)
      split; [exact Hw|].
      unfold sinit_ok. cbn [st_rev st_etd st_dsoc]. eexists _, _, _. repeat split; eassumption.
    + (* the newest arrival now announces this trip *)
      split.
      * apply stat_append_wf; [exact Hd| |].
        -- right. eexists _, _, _, _. split; [reflexivity|]. split; [lia|]. split; assumption.
        -- eapply swf_rehead; [exact Hw|]. right. eexists. split; [reflexivity|]. split; [lia|exact Hm].
      * unfold stat_append, sinit_ok. destruct (days <=? s_day tr)%nat; cbn [st_rev st_etd st_dsoc last] in *;
          eexists _, _, _; repeat split; eassumption.
Qed.

Lemma stat_vehicle_inv m buf days trips : Forall (fun tr => (0 <= s_dur tr)%Z) trips ->
  stat_inv m (1 + buf) (@stat_vehicle R RNum m buf days trips).
Proof.
  unfold stat_vehicle. assert (H0 : stat_inv m (1 + buf) (@sinit R)) by (split; [constructor|exact I]).
  revert H0. generalize (@sinit R). induction trips as [|tr trips IH]; intros s H0 HF; [exact H0|].
  inversion HF. apply IH; [apply stat_step_inv|]; assumption.
Qed.

(* events of one vehicle, newest first, when the list starts with an arrival: every arrival announces exactly
   the following departure (not before the arrival), with a desired SoC >= minimum that covers the consumption
   until the next connection; every departure announces an arrival not before itself and not after the next
   arrival event *)
Inductive cw (m:R) : list Rgev -> Prop :=
| cw_one a d ds sd : (a <= d)%Z -> m <= ds -> cw m [GArr a (Some d) ds sd]
| cw_more a d ds sd d0 eta0 a0 ds0 sd0 rest :
    (a <= d)%Z -> m <= ds -> (d0 <= eta0)%Z -> (eta0 <= a)%Z -> - sd <= ds0 ->
    cw m (GArr a0 (Some d0) ds0 sd0 :: rest) ->
    cw m (GArr a (Some d) ds sd :: GDep d0 eta0 :: GArr a0 (Some d0) ds0 sd0 :: rest).
(* the finished list: it may end on a departure, because the departure to the next row is emitted even if that row never
   connects *)
Definition cfinal (m:R) (r:list Rgev) : Prop :=
  r = [] \/ cw m r \/ exists d eta a ds sd rest, r = GDep d eta :: GArr a (Some d) ds sd :: rest /\ (d <= eta)%Z /\ cw m (GArr a (Some d) ds sd :: rest).

Lemma cw_rehead m a e ds sd rest ds' : cw m (GArr a e ds sd :: rest) -> m <= ds' -> cw m (GArr a e ds' sd :: rest).
Proof. intros Hw Hd. inversion Hw; [apply cw_one|apply cw_more]; assumption. Qed.

(* input trips of the vehicle in departure order: each trip departs no earlier than the previous arrival
   and arrives no earlier than it departs *)
Fixpoint chain (prev:Z) (rows:list (crow R)) : Prop := match rows with
  | [] => True | r :: tl => (prev <= c_dep r)%Z /\ (c_dep r <= c_arr r)%Z /\ chain (c_arr r) tl end.

(* loop invariant: nothing emitted yet, or the list ends with a pending departure (announcing an arrival not after the next
   row's) behind an arrival that still carries the placeholder desired SoC [m], which upd_last_arr patches later *)
Definition cinv (m:R) (s:cstate R) (rows:list (crow R)) : Prop :=
  (cs_has s = false /\ cs_rev s = []) \/
  (cs_has s = true /\ exists d eta a sd rest, cs_rev s = GDep d eta :: GArr a (Some d) m sd :: rest /\
     cw m (GArr a (Some d) m sd :: rest) /\ (d <= eta)%Z /\ match rows with r :: _ => (eta <= c_arr r)%Z | [] => True end).

Lemma csv_rows_wf m stop : forall rows (s:cstate R) prev, chain prev rows -> cinv m s rows ->
  cfinal m (cs_rev (@csv_rows R RNum m stop s rows)).
Proof.
  induction rows as [|r tl IH]; intros s prev Hch Hinv.
  - cbn [csv_rows]. destruct Hinv as [[_ E]|[_ (d & eta & a & sd & rest & E & Hw & Hde & _)]]; rewrite E.
    + left; reflexivity.
    + right; right. eexists _, _, _, _, _, _. split; [reflexivity|]. split; assumption.
  - cbn [csv_rows]. destruct Hch as (Hp & Hda & Hch).
    destruct (c_conn r).
    + (* connecting trip: arrival event, patched predecessor *)
      set (sum := nadd (cs_sum s) (c_delta r)).
      set (departure := match tl with n :: _ => c_dep n | [] => Z.max (c_arr r + 28800) stop end).
      assert (Hdep : (c_arr r <= departure)%Z).
      { unfold departure. destruct tl as [|n tl']; [lia|]. cbn [chain] in Hch. lia. }
      set (rev0 := if (nltb m sum && cs_has s)%bool then upd_last_arr sum (cs_rev s) else cs_rev s).
      assert (Hrev1 : cw m (GArr (c_arr r) (Some departure) m (nneg sum) :: rev0)).
      { destruct Hinv as [[Eh E]|[Eh (d & eta & a & sd & rest & E & Hw & Hde & Heta)]].
        - unfold rev0. rewrite Eh, E, andb_false_r. apply cw_one; [exact Hdep|lra].
        - unfold rev0. rewrite Eh, E, andb_true_r. cbn [nltb RNum].
          destruct (Rltb m sum) eqn:El; [apply Rltb_t in El|apply Rltb_f in El].
          + apply cw_more; try assumption; try lra.
            * rewrite nneg_R. lra.
            * eapply cw_rehead; [exact Hw|lra].
          + apply cw_more; try assumption; try lra. rewrite nneg_R. lra. }
      destruct tl as [|n tl'].
      * cbn [csv_rows cs_rev]. right; left. exact Hrev1.
      * eapply IH; [exact Hch|]. right. cbn [cs_has cs_rev]. split; [reflexivity|].
        cbn [chain] in Hch. eexists _, _, _, _, _. split; [reflexivity|]. split; [exact Hrev1|]. split; lia.
    + (* trip without connection: only the consumption accumulates *)
      eapply IH; [exact Hch|]. destruct Hinv as [[Eh E]|[Eh (d & eta & a & sd & rest & E & Hw & Hde & Heta)]].
      * left. split; assumption.
      * right. split; [exact Eh|]. eexists _, _, _, _, _. split; [exact E|]. split; [exact Hw|]. split; [exact Hde|].
        destruct tl as [|n tl']; [exact I|]. cbn [chain] in Hch. lia.
Qed.

Fixpoint dep_sorted (l:list (crow R)) : Prop := match l with
  | [] => True | x :: tl => (match tl with y :: _ => (c_dep x <= c_dep y)%Z | [] => True end) /\ dep_sorted tl end.
(* sorted(v_id_list, key=departure_time) is the insertion sort of Sorting.v with the key c_dep *)
Lemma ins_row_is (r:crow R) l : ins_row r l = insert_by (fun x r => negb (c_dep r <=? c_dep x)%Z) r l.
Proof. induction l as [|x t IH]; cbn; [|rewrite IH; destruct (_ <=? _)%Z]; reflexivity. Qed.
Lemma sort_rows_is (l:list (crow R)) : sort_rows l = sort_by (fun x r => negb (c_dep r <=? c_dep x)%Z) l.
Proof. unfold sort_rows, sort_by. induction l as [|r l IH]; cbn [fold_right]; [reflexivity|]. rewrite IH. apply ins_row_is. Qed.
Lemma sort_rows_sorted (l:list (crow R)) : dep_sorted (sort_rows l).
Proof.
  assert (H : StronglySorted (fun a b => (c_dep a <= c_dep b)%Z) (sort_rows l)).
  { rewrite sort_rows_is. apply sort_by_sorted; lia. }
  induction H as [|x r _ IH Hx]; [exact I|]. split; [|exact IH]. destruct Hx; [exact I|assumption].
Qed.
