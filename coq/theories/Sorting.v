(* Sorting.v — the stable insertion sort by which the models render Python's sorted(..., key=...) and
   list.sort(key=...), stated once: Curve.insert, Events.ins_ev, Assign.ins / sins / nins and Gen.ins_row all have
   the shape of [insert_by].  Permutation, sortedness and that an ordered list is left as it is are proved here;
   EventsProps, AssignProps and GenProps show their sorts to be instances and inherit them. *)
From Coq Require Import List Sorted Permutation.
Import ListNotations.

Section InsertSort.
Context {A:Type}.
(* [before x e]: the element [x] already in the list stays in front of the new element [e] *)
Variable before : A -> A -> bool.

Fixpoint insert_by (e:A) (l:list A) : list A := match l with
  | [] => [e] | x :: r => if before x e then x :: insert_by e r else e :: x :: r end.
Definition sort_by (l:list A) : list A := fold_right insert_by [] l.

Lemma insert_by_perm e l : Permutation (insert_by e l) (e :: l).
Proof. induction l as [|x r IH]; cbn; [reflexivity|]. destruct (before x e); [|reflexivity].
  rewrite IH. apply perm_swap. Qed.
Lemma sort_by_perm l : Permutation (sort_by l) l.
Proof. induction l as [|x r IH]; cbn; [reflexivity|]. rewrite insert_by_perm. constructor. exact IH. Qed.

(* a list in which no element has to move is left as it is: [e] stays where it is if its successor [x] need not go
   in front of it *)
Fixpoint in_order (l:list A) : bool := match l with
  | e :: ((x :: _) as r) => negb (before x e) && in_order r | _ => true end.
Lemma sort_by_in_order l : in_order l = true -> sort_by l = l.
Proof.
  induction l as [|e [|x r] IH]; [reflexivity..|]. intros H. apply Bool.andb_true_iff in H. destruct H as [H1 H2].
  change (sort_by (e :: x :: r)) with (insert_by e (sort_by (x :: r))). rewrite (IH H2). cbn.
  apply Bool.negb_true_iff in H1. rewrite H1. reflexivity.
Qed.

Variable le : A -> A -> Prop.
Hypothesis le_trans : forall a b c, le a b -> le b c -> le a c.
Hypothesis before_le : forall x e, before x e = true -> le x e.
Hypothesis after_le : forall x e, before x e = false -> le e x.

Lemma insert_by_sorted e l : StronglySorted le l -> StronglySorted le (insert_by e l).
Proof.
  induction 1 as [|x r Hr IH Hx]; cbn; [repeat constructor|]. destruct (before x e) eqn:E.
  - constructor; [exact IH|]. apply (Permutation_Forall (Permutation_sym (insert_by_perm e r))).
    constructor; [apply before_le, E|exact Hx].
  - apply after_le in E. repeat constructor; [exact Hr|exact Hx|exact E|].
    eapply Forall_impl; [|exact Hx]. intros y. apply le_trans, E.
Qed.
Lemma sort_by_sorted l : StronglySorted le (sort_by l).
Proof. induction l; [constructor|apply insert_by_sorted; assumption]. Qed.
End InsertSort.

Lemma StronglySorted_app_iff {A} (R:A -> A -> Prop) a b :
  StronglySorted R (a ++ b) <-> StronglySorted R a /\ StronglySorted R b /\ forall x y, In x a -> In y b -> R x y.
Proof.
  induction a as [|x a IH]; cbn.
  - split; [intros H; repeat split; [constructor|exact H|intros x y []] | tauto].
  - split.
    + intros H. apply StronglySorted_inv in H. destruct H as [H1 H2].
      apply IH in H1. destruct H1 as (Ha & Hb & Hab). apply Forall_app in H2. destruct H2 as [H2a H2b].
      repeat split; [constructor; assumption|exact Hb|].
      intros u y [<-|Hu] Hy; [|apply Hab; assumption]. rewrite Forall_forall in H2b. apply H2b, Hy.
    + intros (Ha & Hb & Hab). apply StronglySorted_inv in Ha. destruct Ha as [Ha1 Ha2]. constructor.
      * apply IH. repeat split; auto.
      * apply Forall_app. split; [exact Ha2|]. apply Forall_forall. intros y Hy. apply Hab; [left; reflexivity|exact Hy].
Qed.

Section Map.
Context {A B:Type} (f:A->B) (bA:A->A->bool) (bB:B->B->bool).
Hypothesis test_map : forall x e, bB (f x) (f e) = bA x e.
Lemma insert_by_map e l : insert_by bB (f e) (map f l) = map f (insert_by bA e l).
Proof. induction l as [|x r IH]; cbn; [reflexivity|]. rewrite test_map. destruct (bA x e); [rewrite IH|]; reflexivity. Qed.
Lemma sort_by_map l : sort_by bB (map f l) = map f (sort_by bA l).
Proof. induction l as [|e l IH]; [reflexivity|]. unfold sort_by in *. cbn [map fold_right]. rewrite IH. apply insert_by_map. Qed.
End Map.
