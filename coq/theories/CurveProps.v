(* CurveProps.v — the Curve model on the reals (property C03).  On a strictly increasing point
   list the lookup interpolates on the section that holds the SoC (pfs_pts_section, pfs_lookup);
   scale_pts and clamp_secs commute with the lookup, and clamped() is their composition. *)
From Coq Require Import Reals List Lia Lra.
From SV Require Import Num RNum Curve.
Import ListNotations.
Open Scope R_scope.

Notation pt := (R*R)%type.
Notation Rpfs_pts := (@pfs_pts R RNum).
Notation Rlookup := (@power_from_soc R RNum).
Notation Rscale := (@scale_pts R RNum).
Notation Rclamp_sec := (@clamp_sec R RNum).
Notation Rclamp_secs := (@clamp_secs R RNum).
Notation Rmk_curve := (@mk_curve R RNum).
Notation Rclamped := (@clamped R RNum).

Definition lerp (p q:pt) (s:R) : R := snd p + (snd q - snd p) * ((s - fst p) / (fst q - fst p)).
Lemma lerp_l p q : lerp p q (fst p) = snd p.
Proof. unfold lerp, Rdiv. ring. Qed.
Lemma lerp_r p q : fst p <> fst q -> lerp p q (fst q) = snd q.
Proof. intros H. unfold lerp. field. lra. Qed.

(* the lookup as a recursion on the point list alone; the three cases cover every SoC, so that
   pfs_from is not met again *)
Lemma pfs_pts_le p rest s : s <= fst p -> Rpfs_pts (p::rest) s = Ok (snd p).
Proof. intros H. cbn. rewrite Rleb_true by exact H. reflexivity. Qed.
Lemma pfs_pts_sec p q l s : fst p < s <= fst q -> Rpfs_pts (p::q::l) s = Ok (lerp p q s).
Proof. intros H. cbn. rewrite Rleb_false, Rleb_true, Rdivr_ok by lra. reflexivity. Qed.
Lemma pfs_pts_skip p q l s : fst p < s -> fst q < s -> Rpfs_pts (p::q::l) s = Rpfs_pts (q::l) s.
Proof. intros Hp Hq. cbn. rewrite !Rleb_false by assumption. reflexivity. Qed.

Lemma power_from_soc_R c s : s <= 1 -> Rlookup c s = Rpfs_pts (pts c) s.
Proof. intros H. unfold power_from_soc. rewrite one_1, Rltb_false by exact H. reflexivity. Qed.

Fixpoint incr (l:list pt) : Prop := match l with
  | p :: ((q :: _) as r) => fst p < fst q /\ incr r | _ => True end.
Fixpoint nondec (l:list pt) : Prop := match l with
  | p :: ((q :: _) as r) => fst p <= fst q /\ nondec r | _ => True end.
Definition lastx (l:list pt) : R := fst (last l (0,0)).
Definition wf_pts (l:list pt) : Prop :=
  (2 <= length l)%nat /\ incr l /\ fst (hd (0,0) l) = 0 /\ lastx l = 1.
Definition nonneg (l:list pt) : Prop := Forall (fun p => 0 <= snd p) l.

Lemma incr_nondec l : incr l -> nondec l.
Proof. induction l as [|p [|q r] IH]; auto. intros [H1 H2]. split; [lra|]. apply IH, H2. Qed.

Lemma lastx_cons p q r : lastx (p::q::r) = lastx (q::r).
Proof. reflexivity. Qed.

(* incr only compares neighbours; every later point is further right *)
Lemma incr_hd_lt : forall l p q, incr (p :: l) -> In q l -> fst p < fst q.
Proof.
  induction l as [|a l IH]; intros p q H Hq; [destruct Hq|]. destruct H as [Hpa Ha].
  destruct Hq as [<-|Hq]; [exact Hpa|]. specialize (IH a q Ha Hq). lra.
Qed.

Lemma incr_tl p l : incr (p :: l) -> incr l.
Proof. destruct l; [trivial|apply proj2]. Qed.

Lemma incr_le_lastx l : incr l -> forall q, In q l -> fst q <= lastx l.
Proof.
  induction l as [|p [|p' r] IH]; intros H q Hq.
  - destruct Hq.
  - destruct Hq as [<-|[]]. apply Rle_refl.
  - rewrite lastx_cons. destruct H as [Hpp' H]. destruct Hq as [<-|Hq]; [|exact (IH H q Hq)].
    specialize (IH H p' (or_introl eq_refl)). lra.
Qed.

Lemma incr_lastx_gt p q r : incr (p::q::r) -> fst p < lastx (p::q::r).
Proof. intros [H1 H2]. pose proof (incr_le_lastx _ H2 q (or_introl eq_refl)). rewrite lastx_cons. lra. Qed.

Lemma sort_nondec l : nondec l -> @sortpts R RNum l = l.
Proof. unfold sortpts. induction l as [|p r IH]; [reflexivity|]. intros H. cbn [fold_right].
  rewrite IH by (destruct r; cbn in *; tauto).
  destruct r as [|q r']; [reflexivity|]. cbn in H. cbn. rewrite Rltb_false by tauto. reflexivity. Qed.

Lemma ratio_01 a b s : a < b -> a <= s <= b -> 0 <= (s - a) / (b - a) <= 1.
Proof. intros Hab Hs. assert (E : (s - a) / (b - a) * (b - a) = s - a) by (field; lra). nra. Qed.

Lemma lerp_between p q s lo hi : fst p < fst q -> fst p <= s <= fst q ->
  lo <= snd p <= hi -> lo <= snd q <= hi -> lo <= lerp p q s <= hi.
Proof. intros Hx Hs Hp Hq. unfold lerp. pose proof (ratio_01 _ _ _ Hx Hs). nra. Qed.

(* a point of the line from p to q splits the section into two with the same interpolant *)
Lemma lerp_split p q x s : fst p < x < fst q ->
  lerp p (x, lerp p q x) s = lerp p q s /\ lerp (x, lerp p q x) q s = lerp p q s.
Proof. intros H. unfold lerp; cbn [fst snd]. split; field; lra. Qed.

(* power_from_soc's loop stops at the first point q at or above the SoC: the section it uses is
   the one with fst p < s <= fst q *)
Lemma pfs_pts_section : forall l p0 s, incr (p0 :: l) -> fst p0 < s <= lastx (p0 :: l) ->
  exists p q, In p (p0 :: l) /\ In q (p0 :: l) /\ fst p < s <= fst q /\
    Rpfs_pts (p0 :: l) s = Ok (lerp p q s).
Proof.
  induction l as [|a l IH]; intros p0 s Hinc Hs.
  - unfold lastx in Hs; cbn in Hs. lra.
  - destruct Hinc as [H1 H2]. destruct (Rle_dec s (fst a)) as [Hle|Hgt].
    + exists p0, a. rewrite pfs_pts_sec by lra. cbn [In]. repeat split; auto; lra.
    + destruct (IH a s H2) as (p & q & Hp & Hq & Hb & Hv); [rewrite lastx_cons in Hs; lra|].
      exists p, q. rewrite pfs_pts_skip by lra. cbn [In]. auto.
Qed.

(* A point before a point p at or below the SoC plays no role.  In the one case where the code still looks at it,
   s = fst b for the next point b, it interpolates on [a,b]: that line ends in b's power, which the lookup on the
   tail returns. *)
Lemma pfs_pts_drop a l p s : incr (a :: l) -> In p l -> fst p <= s -> Rpfs_pts (a :: l) s = Rpfs_pts l s.
Proof.
  intros Hinc Hp Hs. destruct l as [|b l]; [destruct Hp|]. destruct Hinc as [Hab Hinc].
  assert (fst b <= fst p).
  { destruct Hp as [<-|Hp]; [lra|]. pose proof (incr_hd_lt l b p Hinc Hp). lra. }
  destruct (Rle_dec s (fst b)) as [Hle|Hgt].
  - replace s with (fst b) by lra. rewrite pfs_pts_sec, pfs_pts_le, lerp_r by lra. reflexivity.
  - apply pfs_pts_skip; lra.
Qed.

Lemma pfs_lookup : forall l s i p q, incr l ->
  nth_error l i = Some p -> nth_error l (S i) = Some q -> fst p <= s <= fst q ->
  Rpfs_pts l s = Ok (lerp p q s).
Proof.
  induction l as [|a l IH]; intros s i p q Hinc Hp Hq Hs; [destruct i; discriminate|].
  destruct i as [|i]; cbn in Hp, Hq.
  - injection Hp as <-. destruct l as [|b l]; [discriminate|]. injection Hq as <-.
    destruct (Rle_dec s (fst a)) as [Hle|Hgt]; [|apply pfs_pts_sec; lra].
    rewrite pfs_pts_le by exact Hle. replace s with (fst a) by lra. rewrite lerp_l. reflexivity.
  - rewrite (pfs_pts_drop a l p s Hinc (nth_error_In _ _ Hp)) by lra.
    exact (IH s i p q (incr_tl a l Hinc) Hp Hq Hs).
Qed.

Lemma pfs_pts_at_point : forall l i p, incr l -> nth_error l i = Some p -> Rpfs_pts l (fst p) = Ok (snd p).
Proof.
  induction l as [|a l IH]; intros i p Hinc Hp; [destruct i; discriminate|].
  destruct i as [|i]; cbn in Hp.
  - injection Hp as <-. apply pfs_pts_le, Rle_refl.
  - rewrite (pfs_pts_drop a l p (fst p) Hinc (nth_error_In _ _ Hp)) by apply Rle_refl.
    exact (IH i p (incr_tl a l Hinc) Hp).
Qed.

Definition wf_curve (c:@curve R) : Prop := wf_pts (pts c).
(* what the constructor asks of its points: ordered (not necessarily strictly), from 0 to 1.
   C03 states this much of clamped()'s result, which is in fact a wf_curve (clamped_lookup). *)
Definition wf_weak (c:@curve R) : Prop :=
  pts c <> [] /\ nondec (pts c) /\ fst (hd (0,0) (pts c)) = 0 /\ lastx (pts c) = 1.

Lemma wf_curve_weak c : wf_curve c -> wf_weak c.
Proof.
  intros (Hlen & Hinc & H0 & H1). repeat split; auto using incr_nondec.
  destruct (pts c); [cbn in Hlen; lia|discriminate].
Qed.

Lemma lookup_section c s : wf_curve c -> 0 <= s <= 1 ->
  exists p q, In p (pts c) /\ In q (pts c) /\ fst p < fst q /\ fst p <= s <= fst q /\
    Rlookup c s = Ok (lerp p q s).
Proof.
  intros (Hlen & Hinc & H0 & H1) Hs. rewrite power_from_soc_R by lra.
  destruct (pts c) as [|p [|q l]]; cbn in Hlen; try lia. cbn in H0.
  destruct (Rle_dec s (fst p)) as [Hle|Hgt].
  - exists p, q. pose proof (proj1 Hinc). rewrite (pfs_lookup _ s 0 p q Hinc eq_refl eq_refl) by lra.
    cbn [In]. repeat split; auto; lra.
  - destruct (pfs_pts_section (q::l) p s Hinc) as (p' & q' & Hp' & Hq' & Hs' & ->); [lra|].
    exists p', q'. repeat split; auto; lra.
Qed.

Lemma lookup_total c s : wf_curve c -> 0 <= s <= 1 -> exists v, Rlookup c s = Ok v.
Proof. intros Hwf Hs. destruct (lookup_section c s Hwf Hs) as (p & q & _ & _ & _ & _ & H). eauto. Qed.

Lemma lookup_between c s v lo hi : wf_curve c -> 0 <= s <= 1 ->
  Forall (fun p => lo <= snd p <= hi) (pts c) -> Rlookup c s = Ok v -> lo <= v <= hi.
Proof.
  intros Hwf Hs HF. destruct (lookup_section c s Hwf Hs) as (p & q & Hp & Hq & Hx & Hb & ->).
  intros H; injection H as <-. rewrite Forall_forall in HF. apply lerp_between; auto.
Qed.

Lemma pfs_pts_scale k : forall l s v, Rpfs_pts l s = Ok v -> Rpfs_pts (Rscale k l) s = Ok (k * v).
Proof.
  induction l as [|p [|q l] IH]; intros s v; [discriminate| |].
  - cbn. destruct (Rleb s (fst p)); [|discriminate]. intros H; injection H as <-. reflexivity.
  - cbn [scale_pts map]. destruct (Rle_dec s (fst p)) as [Hp|Hp]; [|destruct (Rle_dec s (fst q)) as [Hq|Hq]].
    + rewrite !pfs_pts_le by exact Hp. intros H; injection H as <-. reflexivity.
    + rewrite !pfs_pts_sec by (cbn; lra). intros H; injection H as <-. unfold lerp; cbn [fst snd nmul RNum]. f_equal. ring.
    + rewrite !pfs_pts_skip by (cbn; lra). apply IH.
Qed.
Lemma scale_fst k l : map fst (Rscale k l) = map fst l.
Proof. unfold scale_pts. rewrite map_map. reflexivity. Qed.
Lemma scale_incr k l : incr l -> incr (Rscale k l).
Proof. induction l as [|p [|q l] IH]; auto. intros [H1 H2]. split; [exact H1|]. apply IH, H2. Qed.
Lemma scale_nondec k l : nondec l -> nondec (Rscale k l).
Proof. induction l as [|p [|q l] IH]; auto. intros [H1 H2]. split; [exact H1|]. apply IH, H2. Qed.
Lemma scale_lastx k l : lastx (Rscale k l) = lastx l.
Proof. induction l as [|p [|q l] IH]; auto. Qed.

(* p with its power capped at lim; xc is the SoC at which the line from p to q meets lim *)
Definition cap (lim:R) (p:pt) : pt := (fst p, Rmin (snd p) lim).
Definition xc (lim:R) (p q:pt) : R := fst p + (fst q - fst p) * ((lim - snd p) / (snd q - snd p)).

Lemma cap_at lim x : cap lim (x, lim) = (x, lim).
Proof. unfold cap; cbn [snd]. rewrite Rmin_left by lra. reflexivity. Qed.

Lemma lerp_cap lim p q s : fst p < fst q -> fst p <= s <= fst q ->
  (snd p <= lim /\ snd q <= lim) \/ (lim <= snd p /\ lim <= snd q) ->
  lerp (cap lim p) (cap lim q) s = Rmin (lerp p q s) lim.
Proof.
  intros Hx Hs H. unfold lerp, cap; cbn [fst snd]. pose proof (ratio_01 _ _ _ Hx Hs) as Ht.
  set (t := (s - fst p) / (fst q - fst p)) in *. clearbody t. destruct H as [[Hp Hq]|[Hp Hq]].
  - rewrite (Rmin_left (snd p)), (Rmin_left (snd q)), Rmin_left by nra. reflexivity.
  - rewrite (Rmin_right (snd p)), (Rmin_right (snd q)), Rmin_right by nra. ring.
Qed.

Lemma xc_range lim p q : fst p < fst q ->
  (snd p < lim < snd q) \/ (snd q < lim < snd p) -> fst p < xc lim p q < fst q.
Proof.
  intros Hx H. unfold xc. set (t := (lim - snd p) / (snd q - snd p)).
  assert (E : t * (snd q - snd p) = lim - snd p) by (unfold t; field; lra).
  nra.
Qed.

Lemma lerp_at_xc lim p q : fst p < fst q -> snd p <> snd q -> lerp p q (xc lim p q) = lim.
Proof. intros Hx Hy. unfold lerp, xc. field. lra. Qed.

(* the if-cascade of clamped(): one point while the section stays on one side of lim, and the
   crossing point after it otherwise *)
Lemma clamp_sec_cases lim p q :
  (Rclamp_sec lim p q = Ok [cap lim p] /\
     ((snd p <= lim /\ snd q <= lim) \/ (lim <= snd p /\ lim <= snd q)))
  \/ (Rclamp_sec lim p q = Ok [cap lim p; (xc lim p q, lim)] /\
     ((snd p < lim < snd q) \/ (snd q < lim < snd p))).
Proof.
  unfold clamp_sec, cap, xc. cbn [nleb ndiv nadd nsub nmul RNum]. unfold Rleb.
  destruct (Rle_dec (snd p) lim) as [A|A], (Rle_dec (snd q) lim) as [B|B]; cbn [andb].
  - left. rewrite Rmin_left by exact A. split; [reflexivity|lra].
  - destruct (Rle_dec lim (snd q)) as [_|C]; [|lra]. destruct (Rle_dec lim (snd p)) as [A'|A']; cbn [andb].
    + left. rewrite Rmin_right by exact A'. split; [reflexivity|lra].
    + right. rewrite Rdivr_ok, Rmin_left by lra. split; [reflexivity|lra].
  - destruct (Rle_dec lim (snd p)) as [_|C]; [|lra]. destruct (Rle_dec lim (snd q)) as [B'|B']; cbn [andb].
    + left. rewrite Rmin_right by lra. split; [reflexivity|lra].
    + right. rewrite Rdivr_ok, Rmin_right by lra. split; [reflexivity|lra].
  - destruct (Rle_dec lim (snd p)) as [_|C]; [|lra]. destruct (Rle_dec lim (snd q)) as [_|C]; [|lra].
    left. rewrite Rmin_right by lra. split; [reflexivity|lra].
Qed.

Lemma clamp_secs_cons lim p q l : Rclamp_secs lim (p :: q :: l) =
  let! hd := Rclamp_sec lim p q in let! tl := Rclamp_secs lim (q :: l) in Ok (hd ++ tl).
Proof. reflexivity. Qed.

(* wherever the lookup on l is defined, the lookup on L is its minimum with lim *)
Definition caps (lim:R) (l L:list pt) : Prop :=
  forall s v, Rpfs_pts l s = Ok v -> Rpfs_pts L s = Ok (Rmin v lim).

Lemma caps_flat lim p q l T :
  (snd p <= lim /\ snd q <= lim) \/ (lim <= snd p /\ lim <= snd q) ->
  caps lim (q :: l) (cap lim q :: T) -> caps lim (p :: q :: l) (cap lim p :: cap lim q :: T).
Proof.
  intros Hside Ht s v. destruct (Rle_dec s (fst p)) as [Hp|Hp].
  - rewrite !pfs_pts_le by exact Hp. intros H; injection H as <-. reflexivity.
  - destruct (Rle_dec s (fst q)) as [Hq|Hq].
    + rewrite !pfs_pts_sec by (cbn; lra). intros H; injection H as <-.
      rewrite lerp_cap by (try assumption; lra). reflexivity.
    + rewrite !pfs_pts_skip by (cbn; lra). apply Ht.
Qed.

Lemma pfs_pts_refine p q x l s : fst p < x < fst q ->
  Rpfs_pts (p :: (x, lerp p q x) :: q :: l) s = Rpfs_pts (p :: q :: l) s.
Proof.
  intros Hx. destruct (lerp_split p q x s Hx) as [Sl Sr]. destruct (Rle_dec s (fst p)) as [Hp|Hp].
  - rewrite !pfs_pts_le by exact Hp. reflexivity.
  - destruct (Rle_dec s x) as [H1|H1]; [|destruct (Rle_dec s (fst q)) as [H2|H2]].
    + rewrite !pfs_pts_sec by (cbn; lra). rewrite Sl. reflexivity.
    + rewrite pfs_pts_skip, !pfs_pts_sec by (cbn; lra). rewrite Sr. reflexivity.
    + rewrite !pfs_pts_skip by (cbn; lra). reflexivity.
Qed.

(* the loop of clamped(): a section that crosses lim is split by its crossing point, which lies
   on the line, into two that each stay on one side of lim *)
Lemma clamp_secs_lookup lim : forall l p, incr (p :: l) -> lastx (p :: l) = 1 ->
  exists L, Rclamp_secs lim (p :: l) = Ok (cap lim p :: L) /\
    incr (cap lim p :: L) /\ lastx (cap lim p :: L) = 1 /\ caps lim (p :: l) (cap lim p :: L).
Proof.
  induction l as [|q l IH]; intros p Hinc Hlast.
  - (* the last point: clamped() writes its SoC as 1 *)
    exists []. cbn [clamp_secs].
    rewrite nmin_R, one_1, Rmin_comm, <- Hlast. split; [reflexivity|]. split; [exact I|]. split; [reflexivity|].
    intros s v. cbn. destruct (Rleb s (fst p)); [|discriminate]. intros H; injection H as <-. reflexivity.
  - destruct Hinc as [Hx Hinc].
    destruct (IH q Hinc Hlast) as (L' & HL' & Hi & Hlx & Hev).
    rewrite clamp_secs_cons, HL'. destruct (clamp_sec_cases lim p q) as [[-> Hside]|[-> Hside]].
    + exists (cap lim q :: L'). split; [reflexivity|]. split; [|split; [exact Hlx|]].
      * split; [cbn; lra|exact Hi].
      * apply caps_flat; assumption.
    + pose proof (xc_range lim p q Hx Hside) as Hxc. set (x := xc lim p q) in *.
      assert (Hl : lerp p q x = lim) by (apply lerp_at_xc; lra).
      exists ((x, lim) :: cap lim q :: L'). split; [reflexivity|]. split; [|split; [exact Hlx|]].
      * split; [cbn; lra|]. split; [cbn; lra|exact Hi].
      * assert (C : caps lim (p :: (x, lim) :: q :: l) (cap lim p :: cap lim (x, lim) :: cap lim q :: L')).
        { apply caps_flat; [cbn; lra|]. apply caps_flat; [cbn; lra|exact Hev]. }
        rewrite cap_at in C. intros s v Hv. apply C. rewrite <- Hl, pfs_pts_refine by exact Hxc. exact Hv.
Qed.

Definition maxfold (l:list pt) : R := fold_left (fun acc p => @nmax R RNum (snd p) acc) l (@zero R RNum).

Lemma last_default {A} (l:list A) d d' : l <> [] -> last l d = last l d'.
Proof. induction l as [|a [|b l] IH]; intros H; [congruence|reflexivity|].
  apply IH. congruence. Qed.

Lemma mk_curve_nondec l : l <> [] -> nondec l -> fst (hd (0,0) l) = 0 -> lastx l = 1 ->
  Rmk_curve l = Ok {| pts := l; maxp := maxfold l |}.
Proof.
  intros Hne Hnd H0 H1. unfold mk_curve. rewrite sort_nondec by exact Hnd.
  destruct l as [|p0 l]; [congruence|].
  rewrite zero_0, one_1.
  rewrite Reqb_true by exact H0.
  erewrite (last_default _ _ (0,0)) by congruence. rewrite Reqb_true by exact H1.
  unfold maxfold. rewrite zero_0. reflexivity.
Qed.

Lemma maxfold_spec : forall (l:list pt) acc,
  let m := fold_left (fun acc (p:pt) => @nmax R RNum (snd p) acc) l acc in
  acc <= m /\ Forall (fun p => snd p <= m) l /\ (m = acc \/ In m (map snd l)).
Proof.
  induction l as [|p l IH]; intros acc; cbn.
  - repeat split; auto; lra.
  - specialize (IH (@nmax R RNum (snd p) acc)). destruct IH as (I1 & I2 & I3).
    rewrite nmax_R in *. pose proof (Rmax_l (snd p) acc). pose proof (Rmax_r (snd p) acc).
    repeat split; [lra| constructor; [lra|exact I2] |].
    destruct I3 as [->|I3]; [|right; right; exact I3].
    unfold Rmax. destruct (Rle_dec (snd p) acc); auto.
Qed.

Lemma maxfold_max l : l <> [] -> nonneg l ->
  Forall (fun p => snd p <= maxfold l) l /\ In (maxfold l) (map snd l).
Proof.
  intros Hne Hnn. destruct l as [|p l]; [congruence|].
  unfold maxfold. pose proof (maxfold_spec (p::l) (@zero R RNum)) as H.
  destruct H as (H1 & H2 & H3). split; [exact H2|].
  destruct H3 as [H3|H3]; [|exact H3].
  (* the fold stayed at 0: then every power is <= 0 and >= 0, so the first one equals it *)
  inversion H2 as [|? ? Hp ?]. inversion Hnn as [|? ? Hp' ?]; subst. left.
  rewrite zero_0 in *. lra.
Qed.

Lemma max_power_bounds_curve c s v : wf_curve c -> maxp c = maxfold (pts c) -> nonneg (pts c) ->
  0 <= s <= 1 -> Rlookup c s = Ok v -> 0 <= v <= maxp c.
Proof.
  intros Hwf Hm Hnn Hs Hv. apply (lookup_between c s v 0 (maxp c) Hwf Hs); [|exact Hv].
  destruct (wf_curve_weak c Hwf) as [Hne _].
  destruct (maxfold_max (pts c) Hne Hnn) as [HF _]. rewrite <- Hm in HF.
  exact (Forall_and Hnn HF).
Qed.

Lemma clamped_unfold c lim pre post p q l : pts c = p::q::l ->
  Rclamped c lim pre post = let! np := Rclamp_secs lim (Rscale pre (p::q::l)) in Rmk_curve (Rscale post np).
Proof. intros H. unfold clamped. rewrite H. reflexivity. Qed.

(* clamped() gives a well-formed curve again (a crossing point lies strictly inside its section),
   and its lookup is post * min (pre * lookup, lim) wherever the lookup is defined *)
Lemma clamped_lookup c lim pre post : wf_curve c ->
  exists c', Rclamped c lim pre post = Ok c' /\ wf_curve c' /\ maxp c' = maxfold (pts c') /\
    forall s v, Rlookup c s = Ok v -> Rlookup c' s = Ok (post * Rmin (pre * v) lim).
Proof.
  intros (Hlen & Hinc & H0 & H1).
  destruct (pts c) as [|p [|q l]] eqn:Hp; cbn in Hlen; try lia.
  rewrite (clamped_unfold c lim pre post p q l Hp).
  destruct (clamp_secs_lookup lim (Rscale pre (q::l)) (fst p, pre * snd p)) as (L & HL & Hi & Hlx & Hev).
  { apply (scale_incr pre (p::q::l)), Hinc. }
  { rewrite <- H1. apply (scale_lastx pre (p::q::l)). }
  change (Rscale pre (p::q::l)) with ((fst p, pre * snd p) :: Rscale pre (q::l)).
  rewrite HL. cbn [bind]. set (NP := cap lim _ :: L) in *.
  assert (W : wf_curve {| pts := Rscale post NP; maxp := maxfold (Rscale post NP) |}).
  { repeat split; cbn [pts].
    - (* a single point cannot be at SoC 0 and at SoC 1 *)
      destruct L; [unfold lastx in Hlx; cbn in Hlx, H0; lra|cbn; lia].
    - apply scale_incr, Hi.
    - exact H0.
    - rewrite scale_lastx. exact Hlx. }
  rewrite (mk_curve_nondec (Rscale post NP)) by apply (wf_curve_weak _ W).
  eexists. split; [reflexivity|]. split; [exact W|]. split; [reflexivity|].
  intros s v. unfold power_from_soc. rewrite Hp. destruct (nltb one s); [discriminate|].
  intros Hv. apply pfs_pts_scale, Hev, (pfs_pts_scale pre (p::q::l)), Hv.
Qed.

(* VehicleType's default discharge curve: factor * charging curve, capped at max_power *)
Lemma default_discharge_lookup c f : wf_curve c ->
  exists c', @default_discharge R RNum c f = Ok c' /\ wf_curve c' /\
    forall s v, Rlookup c s = Ok v -> Rlookup c' s = Ok (Rmin (f * v) (maxp c)).
Proof.
  intros Hwf. destruct (clamped_lookup c (maxp c) f 1 Hwf) as (c' & Hc & Hw & _ & Hev).
  exists c'. unfold default_discharge. rewrite one_1. split; [exact Hc|]. split; [exact Hw|].
  intros s v Hv. rewrite (Hev s v Hv), Rmult_1_l. reflexivity.
Qed.
