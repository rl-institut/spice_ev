(* EventsShift.v — time-relabelling invariance of the event model (property C16): shifting every
   timestamp (clock, event start/signal times, announced arrival/departure times) by the same
   amount d commutes with event delivery, sorting, the queue loop and the final checks of the pre-step (the
   pre-step itself: props/C16.v); no power, SoC, load, limit or counter depends on d.  Holds for any number
   type; axiom-free. *)
From Coq Require Import ZArith List Bool String Lia.
From SV Require Import Num Events Sorting Dict.
Import ListNotations.
Open Scope Z_scope.

Section Shift.
Context {T} {N: Num T}.
Variable d : Z.

Definition sh_oz (x:option Z) : option Z := match x with Some t => Some (t + d) | None => None end.
Definition sh_ooz (x:option (option Z)) : option (option Z) := match x with Some t => Some (sh_oz t) | None => None end.
Definition sh_upd (u:@update T) : @update T :=
  {| u_cs := u_cs u; u_etd := sh_ooz (u_etd u); u_eta := sh_ooz (u_eta u); u_desired := u_desired u; u_delta := u_delta u; u_schedule := u_schedule u |}.
Definition sh_kind (k:@ekind T) : @ekind T := match k with EVeh v t u => EVeh v t (sh_upd u) | x => x end.
Definition sh_ev (e:@event_t T) : @event_t T := {| e_start := e_start e + d; e_signal := e_signal e + d; e_kind := sh_kind (e_kind e) |}.
Definition sh_veh (v:@vehicle T) : @vehicle T :=
  {| v_cs := v_cs v; v_soc := v_soc v; v_desired := v_desired v; v_etd := sh_oz (v_etd v); v_eta := sh_oz (v_eta v);
     v_schedule := v_schedule v; v_delta := v_delta v |}.
Definition sh_tr (tr:list (string * list Z)) := map (fun kl => (fst kl, map (fun x => x + d) (snd kl))) tr.
Definition sh_world (w:@world T) : @world T :=
  {| w_time := w_time w + d; w_gcs := w_gcs w; w_veh := map (fun kv => (fst kv, sh_veh (snd kv))) (w_veh w);
     w_cs := w_cs w; w_bat := w_bat w; w_future := map sh_ev (w_future w);
     w_desired_cnt := w_desired_cnt w; w_margin_cnt := w_margin_cnt w;
     w_tracker := sh_tr (w_tracker w) |}.

Lemma ltb_shift a b : (a + d <? b + d) = (a <? b).
Proof. lia. Qed.
Lemma leb_shift a b : (a + d <=? b + d) = (a <=? b).
Proof. lia. Qed.

Lemma event_index_shift t0 delta (e:@event_t T) : event_index (t0 + d) delta (sh_ev e) = event_index t0 delta e.
Proof. unfold event_index. cbn. f_equal. f_equal. lia. Qed.
Lemma bucket_shift t0 delta n (evs:list (@event_t T)) i :
  bucket (t0 + d) delta n (map sh_ev evs) i = map sh_ev (bucket t0 delta n evs i).
Proof. induction evs as [|e r IH]; cbn [map bucket]; [reflexivity|]. rewrite event_index_shift, IH.
  destruct (if event_index t0 delta e <? 0 then _ else _); reflexivity. Qed.

Lemma sort_events_shift l : sort_events (map sh_ev l) = map sh_ev (@sort_events T l).
Proof. apply (sort_by_map sh_ev (fun x e => e_start x <? e_start e)). intros x e. apply ltb_shift. Qed.

Lemma track_shift k t (tr:list (string * list Z)) : track k (t + d) (sh_tr tr) = sh_tr (track k t tr).
Proof.
  unfold track, sh_tr. rewrite lookup_map_val. destruct (lookup k tr) as [l|]; cbn [option_map].
  - rewrite <- assign_map_val, map_app. reflexivity.
  - rewrite map_app. reflexivity.
Qed.

(* one event: every branch of apply_event stores the shifted vehicle and tracks the shifted time *)
Lemma apply_event_shift o (w:@world T) e :
  apply_event o (sh_world w) (sh_ev e) = (sh_world (fst (apply_event o w e)), snd (apply_event o w e)).
Proof.
  unfold apply_event. cbn [e_kind sh_ev]. destruct (e_kind e) as [gc name v|gc name v|gc mp c t wd|vid et u]; cbn [sh_kind].
  (* a connector event reads nothing that is shifted *)
  1-3: cbn [w_gcs w_cs sh_world]; destruct (lookup gc (w_gcs w)); try destruct (mem name (w_cs w)); reflexivity.
  cbn [w_veh sh_world]. rewrite lookup_map_val. destruct (lookup vid (w_veh w)) as [v0|]; [|reflexivity].
  cbn [option_map].
  assert (HU : apply_update (sh_veh v0) (sh_upd u) = sh_veh (apply_update v0 u)).
  { unfold apply_update, sh_veh, sh_upd; cbn. f_equal; destruct (u_etd u) as [[|]|]; destruct (u_eta u) as [[|]|]; reflexivity. }
  rewrite HU. cbn [v_delta v_cs with_soc v_soc sh_veh w_time sh_world e_start sh_ev].
  replace (e_start e + d <? w_time w + d - o_interval o) with (e_start e <? w_time w - o_interval o)
    by (rewrite <- (ltb_shift (e_start e)); f_equal; lia).
  destruct et; [destruct (v_delta _); [destruct (nltb _ _), (o_allow_neg o), (o_reset_neg o)|]|destruct (_ <? _)|].
  all: unfold sh_world; cbn; rewrite <- ?(assign_map_val sh_veh), <- ?track_shift; reflexivity.
Qed.

Lemma apply_due_shift o : forall (evs:list (@event_t T)) w,
  apply_due o (sh_world w) (map sh_ev evs) = (sh_world (fst (apply_due o w evs)), snd (apply_due o w evs)).
Proof.
  induction evs as [|e r IH]; intros w; cbn [map apply_due]; [reflexivity|].
  cbn [e_start sh_ev w_time sh_world]. rewrite leb_shift. destruct (e_start e <=? w_time w); [|reflexivity].
  change (set_future (sh_world w) (map sh_ev r)) with (sh_world (set_future w r)). rewrite apply_event_shift.
  destruct (apply_event o (set_future w r) e) as [w' [x|]]; [reflexivity|apply IH].
Qed.

Lemma finish_shift (w:@world T) : finish (sh_world w) = (sh_world (fst (finish w)), snd (finish w)).
Proof.
  unfold finish. cbn [w_gcs sh_world].
  assert (G : forall todo done, finish_go (sh_world w) done todo = finish_go w done todo).
  { induction todo as [|[k g] r IH]; intros done; cbn [finish_go]; [reflexivity|].
    change (reset_loads (sh_world w) g) with (reset_loads w g). destruct (cost_empty _ && _); [reflexivity|apply IH]. }
  rewrite G. destruct (finish_go w [] (w_gcs w)) as [gcs2 e]. reflexivity.
Qed.
End Shift.
