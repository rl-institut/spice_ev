(* BatteryProps.v — theory of the Battery model on the R instance (property C01): one iteration of
   the loop of _adjust_soc, the two loop invariants, the account of _adjust_soc and of load. *)
From Coq Require Import Bool Reals Lra.
From SV Require Import Num RNum Curve Battery.
Open Scope R_scope.

Notation Router := (@outer R RNum).
Notation Rbat := (@bat R).

(* the loop does not run when the target is within EPS (or no time is left) *)
Lemma outer_exit fx fuel c capa e dis tgt s rem bidx bsoc en :
  rem <= e \/ @sgn R RNum dis (tgt - s) <= e ->
  Router fx (S fuel) c capa e dis tgt s rem bidx bsoc en = Ok (s, en).
Proof.
  intros H. cbn [outer]. cbn [nltb RNum].
  destruct H as [H|H]; [rewrite (Rltb_false e rem) by lra; reflexivity|].
  rewrite (Rltb_false e (sgn dis (tgt - s))) by exact H. rewrite andb_false_r. reflexivity.
Qed.

(* The body of the loop is a long [let!] chain with nested conditionals.  [dres] splits such a chain that is known to
   evaluate to Ok along every bind, pair and conditional; [rbool] turns the boolean comparisons on R that hold, and
   their conjunctions, into Props. *)
Ltac dres := repeat match goal with
  | H : bind ?r _ = Ok _ |- _ => destruct r eqn:?; cbn [bind] in H; [| discriminate H]
  | H : (let (_,_) := ?p in _) = Ok _ |- _ => destruct p eqn:?
  | H : (if ?b then _ else _) = Ok _ |- _ => destruct b eqn:?; try discriminate H
  | H : Ok _ = Ok _ |- _ => injection H as H; try subst
  end.
Ltac rbool := repeat match goal with
  | H : Rleb _ _ = true |- _ => apply Rleb_t in H
  | H : Rltb _ _ = true |- _ => apply Rltb_t in H
  | H : _ && _ = true |- _ => apply andb_true_iff in H; destruct H
  end.

(* One iteration: the loop either stops where it is (while-condition false, or no power left on the
   curve), or it has computed a new SoC [new] that passed asserts 4/5, 6 and 7 and goes on from
   min(new, 1) with the energy |new - s| * capacity added.  How [new] was computed plays no role
   for C01. *)
Lemma outer_step fx f c capa e dis tgt s rem bidx bsoc en r :
  Router fx (S f) c capa e dis tgt s rem bidx bsoc en = Ok r ->
  r = (s, en) \/
  exists new rem' bidx' bsoc',
    Router fx f c capa e dis tgt (Rmin new 1) rem' bidx' bsoc' (en + Rabs (new - s) * capa) = Ok r /\
    e < (if dis then s - tgt else tgt - s) /\ (if dis then new <= s else s <= new) /\
    0 < Rabs (new - s) * capa /\ new < 1 + e.
Proof.
  intros H. cbn [outer] in H. dres.
  all: try (left; reflexivity).
  (* what is left: an iteration on a flat and one on a sloped section *)
  all: right; cbn [nleb nltb nadd nsub nmul RNum] in *.
  all: rewrite ?nmin_R, ?nabs_R, ?one_1, ?zero_0 in *; rbool.
  all: do 4 eexists; split; [eassumption|].
  all: destruct dis; cbn [sgn] in *; rewrite ?nneg_R in *; rbool.
  all: repeat split; assumption || lra.
Qed.

(* Charging: the SoC rises to at most 1, and the energy booked exceeds capacity * rise by less than capacity * EPS,
   the excess being what the clip at 100 % cut off; [tgt <= 1] keeps the loop from running on at s = 1. *)
Lemma outer_charge : forall fx fuel c capa e tgt s rem bidx bsoc en s' en',
  Router fx fuel c capa e false tgt s rem bidx bsoc en = Ok (s', en') ->
  0 < capa -> 0 < e -> tgt <= 1 -> s <= 1 ->
  s <= s' <= 1 /\ 0 <= (en' - en) - capa * (s' - s) < capa * e /\ (s = 1 -> s' = 1 /\ en' = en) /\
  (s' < 1 -> en' - en = capa * (s' - s)).
Proof.
  induction fuel as [|f IH]; intros c capa e tgt s rem bidx bsoc en s' en' H Hc He Ht Hs; [discriminate|].
  assert (0 < capa * e) by (apply Rmult_lt_0_compat; assumption).
  apply outer_step in H. destruct H as [H | (new & rem' & bidx' & bsoc' & H & Hgo & Hdir & _ & Hlt)].
  - injection H as <- <-. lra.
  - apply IH in H; [| assumption | assumption | assumption | apply Rmin_r].
    destruct H as (H1 & H2 & H3 & H4).
    rewrite (Rabs_pos_eq (new - s)) in * by lra.
    destruct (Rle_dec new 1) as [Hn|Hn].
    + rewrite Rmin_left in * by exact Hn. lra.
    + (* new > 1 is clipped to 1, where the loop ends (H3); the excess (new - 1) * capa, which is
         below capa * e by assert 7, stays in the energy *)
      rewrite Rmin_right in * by lra. destruct (H3 eq_refl) as [-> ->].
      assert (0 < capa * (new - 1) < capa * e).
      { split; [apply Rmult_lt_0_compat | apply Rmult_lt_compat_l]; lra. }
      lra.
Qed.

(* Discharging: the SoC falls, and the energy booked is exactly capacity * fall. *)
Lemma outer_discharge : forall fx fuel c capa e tgt s rem bidx bsoc en s' en',
  Router fx fuel c capa e true tgt s rem bidx bsoc en = Ok (s', en') ->
  0 < capa -> s <= 1 ->
  s' <= s /\ en' - en = capa * (s - s').
Proof.
  induction fuel as [|f IH]; intros c capa e tgt s rem bidx bsoc en s' en' H Hc Hs; [discriminate|].
  apply outer_step in H. destruct H as [H | (new & rem' & bidx' & bsoc' & H & _ & Hdir & _ & _)].
  - injection H as <- <-. lra.
  - (* new <= s <= 1: nothing is clipped, so the account is exact *)
    rewrite Rmin_left, (Rabs_left1 (new - s)) in H by lra.
    apply IH in H; [| assumption | lra]. lra.
Qed.

Notation Radjust := (@adjust_soc R RNum).
Definition wf_bat (b:Rbat) : Prop := 0 < cap b /\ 0 < eff b /\ 0 < eps b /\ soc b <= 1.

Lemma outer_fuel_S (c:@curve R) : exists f, @outer_fuel R c = S f.
Proof. unfold outer_fuel. eexists. rewrite Nat.add_comm. reflexivity. Qed.

(* _adjust_soc: only the SoC changes.  A target within EPS of the SoC leaves everything as it is.
   The other two clauses are stated under the guards of unload and of load (target not above,
   resp. not below, the SoC by more than EPS): downwards the energy account is exact; upwards,
   to a target of at most 1, it holds up to the clipping tolerance capacity*EPS, and exactly when
   the SoC stays below 1. *)
Lemma adjust_account {fx b hours c tgt b' avg} : Radjust fx b hours c tgt = Ok (b', avg) ->
  wf_bat b -> 0 < hours ->
  b' = set_soc b (soc b') /\
  (soc b - eps b <= tgt <= soc b + eps b -> soc b' = soc b /\ avg = 0) /\
  (tgt <= soc b + eps b -> soc b' <= soc b /\ avg * hours = cap b * (soc b - soc b')) /\
  (soc b - eps b <= tgt <= 1 -> soc b <= soc b' <= 1 /\
     0 <= avg * hours - cap b * (soc b' - soc b) < cap b * eps b /\
     (soc b' < 1 -> avg * hours = cap b * (soc b' - soc b))).
Proof.
  intros H (Hc & Hf & He & Hs) Hh. unfold adjust_soc in H.
  destruct (section_boundary c (soc b)) as [[i1 i2]|]; cbn [bind] in H; [|discriminate].
  destruct (if nltb tgt (soc b) then _ else _) as [bi|]; cbn [bind] in H; [|discriminate].
  destruct (Router _ _ _ _ _ _ _ _ _ _ _ _) as [[s' en]|] eqn:Hloop; cbn [bind] in H; [|discriminate].
  injection H as <- <-. cbn [soc set_soc nltb RNum] in *. rewrite Rdivr_ok, zero_0 in * by lra.
  replace (en / hours * hours) with en by (field; lra).
  assert (0 < cap b * eps b) by (apply Rmult_lt_0_compat; assumption).
  assert (Hnoop : soc b - eps b <= tgt <= soc b + eps b -> s' = soc b /\ en = 0).
  { intros Hnear. destruct (outer_fuel_S c) as (f & Hfuel). rewrite Hfuel, outer_exit in Hloop.
    - injection Hloop as <- <-. split; reflexivity.
    - right. unfold sgn. rewrite nneg_R. destruct (Rltb tgt (soc b)); lra. }
  split; [reflexivity|]. split; [|split].
  - intros Hnear. destruct (Hnoop Hnear) as [-> ->]. split; [reflexivity|]. apply Rmult_0_l.
  - intros Ht. destruct (Rlt_dec tgt (soc b)) as [Hdis|Hup].
    + rewrite Rltb_true in Hloop by exact Hdis. apply outer_discharge in Hloop; lra.
    + destruct Hnoop as [-> ->]; lra.
  - intros [Hlo Ht]. destruct (Rle_dec (soc b) tgt) as [Hup|Hdis].
    + rewrite Rltb_false in Hloop by exact Hup. apply outer_charge in Hloop; try assumption. lra.
    + destruct Hnoop as [-> ->]; lra.
Qed.

(* Battery.load: SoC never falls, never exceeds 1; reported delta is the actual change; the
   average power is non-negative and avg_power * T * efficiency equals the stored energy up
   to the code's own clipping tolerance capacity*EPS (exactly when nothing was clipped) *)
Lemma load_account {b hours mp tg b' p d} : @load R RNum b hours mp tg = Ok (b', p, d) ->
  wf_bat b -> 0 < hours ->
  b' = set_soc b (soc b') /\ d = soc b' - soc b /\ soc b <= soc b' <= 1 /\ 0 <= p /\
  0 <= p * eff b * hours - cap b * (soc b' - soc b) < cap b * eps b /\
  (soc b' < 1 -> p * eff b * hours = cap b * (soc b' - soc b)).
Proof.
  intros H Hw Hh. pose proof Hw as (Hc & Hf & He & Hs). unfold load, load_gen in H.
  destruct (match tg with TNone => _ | TSoc s => _ | TPower p0 => _ | TBoth _ _ => _ end) as [tgt|];
    cbn [bind] in H; [|discriminate].
  destruct (nltb (eps b) (nsub (soc b) tgt)) eqn:Eearly.
  - assert (0 < cap b * eps b) by (apply Rmult_lt_0_compat; assumption).
    rewrite zero_0 in H. injection H as <- <- <-. split; [destruct b; reflexivity|]. lra.
  - cbn [nsub RNum] in Eearly. apply Rltb_f in Eearly.
    destruct (clamped _ _ _ _) as [cl|]; cbn [bind] in H; [|discriminate].
    destruct (Radjust true b hours cl (nmin one tgt)) as [[b1 avg]|] eqn:Eadj; cbn [bind] in H; [|discriminate].
    rewrite Rdivr_ok in H by lra. injection H as <- <- <-.
    replace (avg / eff b * eff b * hours) with (avg * hours) by (field; lra).
    rewrite nmin_R, one_1 in Eadj.
    destruct (adjust_account Eadj Hw Hh) as (Hb & _ & _ & Hup).
    destruct Hup as (H1 & H2 & H3).
    { unfold Rmin. destruct (Rle_dec 1 tgt); lra. }
    split; [exact Hb|]. repeat split; try lra.
    apply Rle_mult_inv_pos; [|exact Hf].
    apply Rmult_le_reg_r with hours; [exact Hh|].
    assert (0 <= cap b * (soc b1 - soc b)) by (apply Rmult_le_pos; lra). lra.
Qed.

(* spice_ev's "unlimited" stationary battery has capacity 2^64 kWh; all the battery needs for the statements above is
   wf_bat (props/C01.v: C01_unlimited) *)
Definition unlimited (b:Rbat) : Prop := cap b = 2^64.
