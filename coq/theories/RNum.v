(* RNum.v — the proof instance of Num on Coq's classical reals, with the small reflection
   lemmas for its booleans and the generic facts about [let!] chains and sums that the
   *Props.v files share. *)
From Coq Require Import Reals List Bool Lra.
From SV Require Import Num.
Open Scope R_scope.

Definition Rleb (a b:R) : bool := if Rle_dec a b then true else false.
Definition Rltb (a b:R) : bool := if Rlt_dec a b then true else false.
Definition Reqb (a b:R) : bool := if Req_EM_T a b then true else false.
Definition Rdivr (a b:R) : res R := if Req_EM_T b 0 then Err ZeroDiv else Ok (a / b).
Definition Rlnr (x:R) : res R := if Rle_dec x 0 then Err ValueErr else Ok (ln x).
#[export] Instance RNum : Num R := {| nofQ := Q2R; nadd := Rplus; nsub := Rminus; nmul := Rmult;
  ndiv := Rdivr; nleb := Rleb; nltb := Rltb; neqb := Reqb;
  nexp := fun x => Ok (exp x); nln := Rlnr |}.

(* [_t], [_f]: from a boolean to the Prop; [_true], [_false]: from the Prop to the boolean *)
Lemma Rleb_t a b : Rleb a b = true -> a <= b. Proof. unfold Rleb; destruct Rle_dec; auto; discriminate. Qed.
Lemma Rleb_f a b : Rleb a b = false -> b < a. Proof. unfold Rleb; destruct Rle_dec; try discriminate; lra. Qed.
Lemma Rltb_t a b : Rltb a b = true -> a < b. Proof. unfold Rltb; destruct Rlt_dec; auto; discriminate. Qed.
Lemma Rltb_f a b : Rltb a b = false -> b <= a. Proof. unfold Rltb; destruct Rlt_dec; try discriminate; lra. Qed.
Lemma Reqb_t a b : Reqb a b = true -> a = b. Proof. unfold Reqb; destruct Req_EM_T; auto; discriminate. Qed.
Lemma Reqb_f a b : Reqb a b = false -> a <> b. Proof. unfold Reqb; destruct Req_EM_T; auto; discriminate. Qed.
Lemma Rleb_true a b : a <= b -> Rleb a b = true. Proof. unfold Rleb; destruct Rle_dec; auto; lra. Qed.
Lemma Rleb_false a b : b < a -> Rleb a b = false. Proof. unfold Rleb; destruct Rle_dec; auto; lra. Qed.
Lemma Rltb_true a b : a < b -> Rltb a b = true. Proof. unfold Rltb; destruct Rlt_dec; auto; lra. Qed.
Lemma Rltb_false a b : b <= a -> Rltb a b = false. Proof. unfold Rltb; destruct Rlt_dec; auto; lra. Qed.
Lemma Reqb_true a b : a = b -> Reqb a b = true. Proof. unfold Reqb; destruct Req_EM_T; auto; contradiction. Qed.
Lemma Reqb_false a b : a <> b -> Reqb a b = false. Proof. unfold Reqb; destruct Req_EM_T; auto; contradiction. Qed.
Lemma Rdivr_ok a b : b <> 0 -> Rdivr a b = Ok (a / b). Proof. unfold Rdivr; destruct Req_EM_T; auto; contradiction. Qed.
Lemma Rdivr_inv a b r : Rdivr a b = Ok r -> b <> 0 /\ r = a / b.
Proof. unfold Rdivr; destruct Req_EM_T; intros H; [discriminate|]. injection H as <-. auto. Qed.

Lemma zero_0 : @zero R RNum = 0. Proof. apply RMicromega.Q2R_0. Qed.
Lemma one_1 : @one R RNum = 1. Proof. apply RMicromega.Q2R_1. Qed.
Lemma Q2R_Z z : Q2R (QArith_base.Qmake z 1) = IZR z. Proof. unfold Q2R. cbn. rewrite Rinv_1. apply Rmult_1_r. Qed.
Lemma nneg_R x : @nneg R RNum x = - x. Proof. unfold nneg. rewrite zero_0. cbn. lra. Qed.
Lemma nmin_R a b : @nmin R RNum a b = Rmin a b.
Proof. unfold nmin; cbn. unfold Rmin. destruct (Rltb b a) eqn:E; [apply Rltb_t in E|apply Rltb_f in E];
  destruct (Rle_dec a b); lra. Qed.
Lemma nmax_R a b : @nmax R RNum a b = Rmax a b.
Proof. unfold nmax; cbn. unfold Rmax. destruct (Rltb a b) eqn:E; [apply Rltb_t in E|apply Rltb_f in E];
  destruct (Rle_dec a b); lra. Qed.
Lemma nabs_R a : @nabs R RNum a = Rabs a.
Proof. unfold nabs. rewrite nneg_R, zero_0. cbn. unfold Rabs. destruct (Rltb a 0) eqn:E; [apply Rltb_t in E|apply Rltb_f in E];
  destruct (Rcase_abs a); lra. Qed.

(* Python's sum(l) is [fold_left nadd l zero] in the models (RunLoop.nsum, Costs.nsum) *)
Lemma nsum_fold_R (l:list R) : fold_left (@nadd R RNum) l (@zero R RNum) = fold_right Rplus 0 l.
Proof. rewrite zero_0. apply (fold_symmetric Rplus); intros; lra. Qed.

Lemma bind_ok {A B} (r:res A) (f:A -> res B) b : bind r f = Ok b -> exists a, r = Ok a /\ f a = Ok b.
Proof. destruct r; [eauto|discriminate]. Qed.
